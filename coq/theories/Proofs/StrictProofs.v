(* C20, the strict parser (Model/Strict.v = internal/httprule/{tokenize,parse}.go): everything it accepts is a string of
   the strict template language StrictLang, with exactly the returned structure (st_parse_sound).  That variables cannot
   nest is a property of the tokenizer (inside a variable '{' does not start a token), carried through the descent as
   the predicate [shaped]. *)
From Coq Require Import Lia.
From GB Require Import Model.Strict Proofs.ByteSearch Proofs.TemplateParseProofs Proofs.TemplateSoundProofs.
Open Scope N_scope.

Lemma pchars_fuel : forall f1 f2 s, (length s <= f1)%nat -> (length s <= f2)%nat -> pchars_f f1 s = pchars_f f2 s.
Proof.
  induction f1 as [|f1 IH]; intros f2 s L1 L2.
  - destruct s; [|inversion L1]. destruct f2; reflexivity.
  - destruct f2 as [|f2]; [destruct s; [reflexivity | inversion L2]|].
    destruct s as [|c r]; [reflexivity|]. cbn [pchars_f]. cbn [length] in L1, L2. apply le_S_n in L1, L2.
    destruct (c =? c_pct); [|rewrite (IH f2 r L1 L2); reflexivity].
    destruct r as [|h1 [|h2 r']]; try reflexivity. cbn [length] in L1, L2. rewrite (IH f2 r'); [reflexivity | lia | lia].
Qed.

Lemma is_hex_colon : is_hex c_colon = false. Proof. reflexivity. Qed.

Lemma pchars_colon b : forall f a, (length a <= f)%nat ->
  pchars_f (f + S (length b)) (a ++ c_colon :: b) = pchars_f f a && is_literal b.
Proof.
  (* the colon is a plain path character: with [a] used up, what is left of the fuel still covers [b] *)
  assert (E : forall g, (length b <= g)%nat -> pchars_f (S g) (c_colon :: b) = is_literal b)
    by (intros g Lg; exact (pchars_fuel g (length b) b Lg (le_n _))).
  induction f as [|f IH]; intros [|c r] L; cbn [length] in L; [exact (E _ (le_n _)) | lia | apply (E (f + S (length b))%nat); lia |].
  cbn [app Nat.add pchars_f]. destruct (c =? c_pct).
  - destruct r as [|h1 [|h2 r']]; cbn [app].
    + destruct b; [reflexivity|]. rewrite is_hex_colon. reflexivity.
    + rewrite is_hex_colon, andb_false_r. reflexivity.
    + cbn [length] in L. rewrite (IH r') by lia. rewrite !andb_assoc. reflexivity.
  - rewrite (IH r) by lia. rewrite andb_assoc. reflexivity.
Qed.

Lemma lit_colon_split a b : is_literal (a ++ c_colon :: b) = is_literal a && is_literal b.
Proof.
  unfold is_literal at 1. rewrite app_length. cbn [length]. rewrite (pchars_colon b (length a) a) by lia. reflexivity.
Qed.
Lemma lit_colon v : is_literal (c_colon :: v) = is_literal v.
Proof. exact (lit_colon_split [] v). Qed.

Definition is_dtok (st : nat) (t : bytes) : option N :=
  match t with [d] => if is_delim st d then Some d else None | _ => None end.
(* what the tokenizer (plus the end marker) can produce from state [st]; [ar]: the previous token was a run of
   non-delimiters, so a delimiter (or the end) must follow *)
Fixpoint shaped (st : nat) (ar : bool) (toks : list bytes) : Prop :=
  match toks with
  | [] => True
  | t :: r => match is_dtok st t with
              | Some d => shaped (next_state st d) false r
              | None => (ar = false /\ shaped st true r) \/ t = eof
              end
  end.

Lemma is_dtok_run st t : t <> [] -> forallb (fun c => negb (is_delim st c)) t = true -> is_dtok st t = None.
Proof.
  intros NE H. destruct t as [|d [|e r]]; [contradiction | | reflexivity].
  cbn [forallb] in H. rewrite andb_true_r in H. apply negb_true_iff in H. cbn [is_dtok]. rewrite H. reflexivity.
Qed.

Lemma shaped_flush st cur r : forallb (fun c => negb (is_delim st c)) cur = true -> (forall ar, shaped st ar r) ->
  shaped st false (match cur with [] => [] | _ => [rev cur] end ++ r).
Proof.
  intros ND T. destruct cur as [|x cur]; [exact (T false)|]. cbn [app shaped]. rewrite is_dtok_run.
  - left. split; [reflexivity | exact (T true)].
  - apply rev_nonempty.
  - rewrite forallb_forall in *. intros y Hy. apply ND, in_rev, Hy.
Qed.
Lemma scan_shaped : forall s st cur, forallb (fun c => negb (is_delim st c)) cur = true -> shaped st false (scan st s cur).
Proof.
  induction s as [|c s IH]; intros st cur ND.
  - rewrite <- (app_nil_r (scan st [] cur)). exact (shaped_flush st cur [] ND (fun _ => I)).
  - cbn [scan]. destruct (is_delim st c) eqn:D; [|apply IH; cbn [forallb]; rewrite D, ND; reflexivity].
    apply (shaped_flush st cur _ ND). intros ar. cbn [shaped is_dtok]. rewrite D. apply IH. reflexivity.
Qed.

(* [shaped] sees what follows a token only as shaped or not: the end of a token list may be exchanged *)
Lemma shaped_tail r1 r2 : (forall st ar, shaped st ar r1 -> shaped st ar r2) ->
  forall toks st ar, shaped st ar (toks ++ r1) -> shaped st ar (toks ++ r2).
Proof.
  intros T. induction toks as [|t r IH]; intros st ar H; [exact (T st ar H)|].
  cbn [app shaped] in *. destruct (is_dtok st t); [exact (IH _ _ H)|].
  destruct H as [[A H]|E]; [left; split; [exact A | exact (IH _ _ H)] | right; exact E].
Qed.
Lemma shaped_eof_only st ar : shaped st ar [eof].
Proof. destruct st as [|[|st]]; right; reflexivity. Qed.
Lemma shaped_eof : forall toks st ar, shaped st ar toks -> shaped st ar (toks ++ [eof]).
Proof.
  intros toks st ar H. apply (shaped_tail [] [eof] (fun st' ar' _ => shaped_eof_only st' ar')). rewrite app_nil_r. exact H.
Qed.

Lemma shaped_dtok st ar t r d : is_dtok st t = Some d -> shaped st ar (t :: r) -> shaped (next_state st d) false r.
Proof. intros DT SH. cbn [shaped] in SH. rewrite DT in SH. exact SH. Qed.
Lemma shaped_none st ar t r : is_dtok st t = None -> shaped st ar (t :: r) -> (ar = false /\ shaped st true r) \/ t = eof.
Proof. intros DT SH. cbn [shaped] in SH. rewrite DT in SH. exact SH. Qed.
Lemma shaped_slash st ar r : (st = 0 \/ st = 2)%nat -> shaped st ar (tk c_slash :: r) -> shaped st false r.
Proof. intros [-> | ->] SH; exact SH. Qed.
Lemma shaped_run st t r : shaped st false (t :: r) -> is_dtok st t = None -> t <> eof -> shaped st true r.
Proof. intros SH DT NE. destruct (shaped_none _ _ _ _ DT SH) as [[_ SH']|E]; [exact SH' | contradiction]. Qed.

Lemma shaped_word st ar t r : t <> [] -> forallb (fun c => negb (is_delim st c)) t = true -> nz t = true ->
  shaped st ar (t :: r) -> ar = false /\ shaped st true r.
Proof.
  intros NE ND Z SH. destruct (shaped_none _ _ _ _ (is_dtok_run st t NE ND) SH) as [X|E]; [exact X | subst t; discriminate Z].
Qed.
Lemma shaped_ident st ar i r : is_ident i = true -> shaped st ar (i :: r) -> ar = false /\ shaped st true r.
Proof.
  intros G. exact (shaped_word st ar i r (proj2 (ident_chars i G)) (ident_nodelim st i G) (ident_nz i G)).
Qed.
Lemma delim1_not_ident d : is_delim 1 d = true -> is_ident [d] = false.
Proof. intros D. apply not_true_is_false. intros I. pose proof (ident_nodelim 1 _ I) as C. cbn [forallb] in C. rewrite D in C. discriminate C. Qed.
Lemma delim2_not_ident d : is_delim 2 d = true -> is_ident [d] = false.
Proof.
  intros D. apply not_true_is_false. intros I. destruct (ident_chars _ I) as [C _]. cbn [forallb] in C. rewrite andb_true_r in C.
  rewrite (idchar_nodelim 2 d C) in D. discriminate D.
Qed.

Lemma shaped_literal st t r : (st = 0 \/ st = 2)%nat -> is_literal t = true -> t <> [] -> shaped st false (t :: r) -> shaped st true r.
Proof. intros ST L N SH. exact (proj2 (shaped_word st false t r N (literal_nodelim t st L ST) (literal_nz t L) SH)). Qed.
Lemma delim02_not_literal st d : (st = 0 \/ st = 2)%nat -> is_delim st d = true -> is_literal [d] = false.
Proof. intros ST D. apply not_true_is_false. intros L. pose proof (literal_nodelim [d] st L ST) as C. cbn [forallb] in C. rewrite D in C. discriminate C. Qed.

Definition is_deep (s : seg) : bool := match s with SDeep => true | _ => false end.
Definition is_var (s : seg) : bool := match s with SVar _ _ => true | _ => false end.
Fixpoint deep_only_last (l : list seg) : bool :=
  match l with [] => true | s :: r => match r with [] => true | _ => negb (is_deep s) && deep_only_last r end end.
Fixpoint multi_only_last (l : list seg) : bool :=
  match l with [] => true | s :: r => match r with [] => true | _ => negb (is_multi s) && multi_only_last r end end.
Definition st_seg_ok (s : seg) : bool := good_seg s && match s with SVar _ inner => deep_only_last inner | _ => true end.

Lemma st_seg_ok_var p inner : st_seg_ok (SVar p inner) = true <->
  p <> [] /\ forallb is_ident p = true /\ inner <> [] /\ forallb good_flat inner = true /\ deep_only_last inner = true.
Proof.
  unfold st_seg_ok. cbn [good_seg]. split.
  - intros H. repeat (apply andb_true_iff in H; destruct H as [H ?]). destruct p, inner; try discriminate; repeat split; (assumption || discriminate).
  - intros (A & -> & C & -> & ->). destruct p, inner; try contradiction; reflexivity.
Qed.

Definition level_ok (st : nat) (segs : list seg) : Prop :=
  match st with
  | 2%nat => forallb good_flat segs = true /\ deep_only_last segs = true
  | _ => forallb st_seg_ok segs = true /\ multi_only_last segs = true
  end.

Lemma flat_multi s : good_flat s = true -> is_multi s = is_deep s.
Proof. destruct s; try reflexivity. discriminate. Qed.

Lemma Rsegs_ne segs txts : Rsegs segs txts -> txts <> [] -> segs <> [].
Proof. destruct segs; [destruct txts; [contradiction | intros []] | discriminate]. Qed.

Lemma st_field_path_spec toks p rest : st_field_path toks = Some (p, rest) <->
  toks = toks_path p ++ rest /\ p <> [] /\ forallb st_ident p = true /\ not_tok c_dot rest.
Proof. exact (fp_spec st_ident toks p rest). Qed.

Lemma st_ident_ne t : t <> [] -> st_ident t = is_ident t.
Proof. destruct t; [contradiction | reflexivity]. Qed.
Lemma ident_st i : is_ident i = true -> st_ident i = true.
Proof. destruct i; [discriminate | intros H; exact H]. Qed.
Lemma toks_path_incl p : incl p (toks_path p).
Proof.
  induction p as [|i [|j p] IH]; intros x Hx; [destruct Hx | exact Hx|].
  destruct Hx as [<-|Hx]; [left; reflexivity | right; right; exact (IH x Hx)].
Qed.
(* checkIdent lets the empty string pass; the tokenizer produces none *)
Lemma st_idents_ne p : Forall ne (toks_path p) -> forallb st_ident p = true -> forallb is_ident p = true.
Proof.
  intros NE F. apply forallb_forall. intros i Hi. rewrite <- st_ident_ne.
  - exact (proj1 (forallb_forall _ _) F i Hi).
  - exact (proj1 (Forall_forall _ _) NE i (toks_path_incl p i Hi)).
Qed.
Lemma path_rest_shaped : forall more rest, forallb is_ident more = true ->
  shaped 1 true (flat_map (fun j => [tk c_dot; j]) more ++ rest) -> shaped 1 true rest.
Proof.
  induction more as [|j p IH]; intros rest G SH; [exact SH|]. cbn [flat_map app] in SH. apply forallb_cons in G as [Gj G].
  apply (shaped_dtok 1 true [c_dot] _ c_dot eq_refl) in SH. exact (IH rest G (proj2 (shaped_ident 1 false j _ Gj SH))).
Qed.
Lemma path_shaped p rest : forallb is_ident p = true -> p <> [] -> shaped 1 false (toks_path p ++ rest) -> shaped 1 true rest.
Proof.
  intros G NE. destruct p as [|i p]; [contradiction|]. rewrite toks_path_shape. cbn [app]. apply forallb_cons in G as [Gi G].
  intros SH. exact (path_rest_shaped p rest G (proj2 (shaped_ident 1 false i _ Gi SH))).
Qed.
Lemma fpr_shaped : forall fuel toks acc path rest, Forall ne toks -> shaped 1 true toks ->
  gw_field_path_rest fuel toks acc = Some (path, rest) -> shaped 1 true rest.
Proof. intros fuel toks acc path rest _ SH H. destruct (fpr_inv is_ident _ _ _ _ _ H) as (more & _ & -> & F & _). exact (path_rest_shaped more rest F SH). Qed.
Lemma fp_shaped toks path rest : Forall ne toks -> shaped 1 false toks -> gw_field_path toks = Some (path, rest) -> shaped 1 true rest.
Proof. intros _ SH H. apply gw_field_path_spec in H. destruct H as (-> & NE & F & _). exact (path_shaped path rest F NE SH). Qed.
(* "{" and a field path: only at the top level - inside a variable '{' is an ordinary run, and what follows a run is a
   delimiter or the end, never an identifier; behind the path the tokenizer is in state 1 *)
Lemma var_shaped st p rest : (st = 0 \/ st = 2)%nat -> Forall ne (toks_path p ++ rest) -> p <> [] -> forallb st_ident p = true ->
  shaped st false (tk c_lbrace :: toks_path p ++ rest) ->
  st = 0%nat /\ forallb is_ident p = true /\ shaped 1 true rest /\ Forall ne rest.
Proof.
  intros ST NE P1 F SH. apply Forall_app in NE. destruct NE as [Np Nr]. pose proof (st_idents_ne p Np F) as P2.
  destruct ST as [-> | ->].
  - apply (shaped_dtok 0 false (tk c_lbrace) _ c_lbrace eq_refl) in SH.
    split; [reflexivity|]. split; [exact P2|]. split; [exact (path_shaped p rest P2 P1 SH) | exact Nr].
  - apply (shaped_word 2 false (tk c_lbrace) _ ltac:(discriminate) eq_refl eq_refl) in SH. destruct SH as [_ SH].
    destruct p as [|i p]; [contradiction|]. rewrite toks_path_shape in SH. apply forallb_cons in P2 as [Pi _].
    destruct (shaped_ident 2 true i _ Pi SH) as [X _]. discriminate X.
Qed.

Lemma flat_literal s : good_flat s = true -> is_literal (tok_flat s) = true.
Proof. destruct s as [| |l|]; intros G; try discriminate; try reflexivity. apply good_lit_iff in G. tauto. Qed.
Lemma flat_ok s : good_flat s = true -> st_seg_ok s = true.
Proof. destruct s; try discriminate; intros G; unfold st_seg_ok; cbn [good_seg]; rewrite G; reflexivity. Qed.
(* the inverse of tok_flat: segment() reads "*" and "**" before it reads a literal *)
Definition relit (t : bytes) : seg := if bytes_eqb t [c_star] then SWild else if bytes_eqb t s_deep then SDeep else SLit t.
Lemma relit_ok t : is_literal t = true -> t <> [] -> good_flat (relit t) = true /\ Rseg (relit t) t.
Proof.
  intros L N. unfold relit. destruct (bytes_eqb_spec t [c_star]) as [->|N1]; [split; reflexivity|].
  destruct (bytes_eqb_spec t s_deep) as [->|N2]; [split; reflexivity|].
  split; [|exact (conj eq_refl (conj N L))]. apply good_lit_iff. rewrite !bytes_eqb_neq. auto.
Qed.
Lemma relit_flat s : good_flat s = true -> relit (tok_flat s) = s.
Proof.
  destruct s as [| |l|]; intros G; try discriminate; try reflexivity. apply good_lit_iff in G. destruct G as (_ & _ & B1 & B2).
  unfold relit. cbn [tok_flat]. rewrite B1, B2. reflexivity.
Qed.

Inductive PSeg (inner : list bytes -> option (list seg * bool * list bytes)) : list bytes -> seg -> bool -> list bytes -> Prop :=
| PFlat t r : is_literal t = true -> PSeg inner (t :: r) (relit t) (is_deep (relit t)) r
| PShort p r2 : p <> [] -> forallb st_ident p = true ->
    PSeg inner (tk c_lbrace :: toks_path p ++ tk c_rbrace :: r2) (SVar p [SWild]) false r2
| PLong p r2 segs m r4 : p <> [] -> forallb st_ident p = true -> inner r2 = Some (segs, m, tk c_rbrace :: r4) ->
    PSeg inner (tk c_lbrace :: toks_path p ++ tk c_eq :: r2) (SVar p segs) m r4.

Lemma st_segment_spec inner toks sg m rest : st_segment inner toks = Some (sg, m, rest) <-> PSeg inner toks sg m rest.
Proof.
  split.
  - unfold st_segment, tok_is. destruct toks as [|t r]; [discriminate|]. destruct (is_literal t) eqn:T3.
    { generalize (PFlat inner t r T3). unfold relit. destruct (bytes_eqb t [c_star]); [|destruct (bytes_eqb t s_deep)]; intros P [= <- <- <-]; exact P. }
    destruct (bytes_eqb_spec t [c_star]) as [->|_]; [discriminate T3|]. destruct (bytes_eqb_spec t s_deep) as [->|_]; [discriminate T3|].
    destruct (bytes_eqb_spec t [c_lbrace]) as [->|_]; [|discriminate].
    destruct (st_field_path r) as [[p [|e r2]]|] eqn:FP; try discriminate. apply st_field_path_spec in FP. destruct FP as (-> & N & F & _).
    destruct (bytes_eqb_spec e [c_eq]) as [->|_].
    + destruct (inner r2) as [[[segs m'] [|c r4]]|] eqn:IN; try discriminate.
      destruct (bytes_eqb_spec c [c_rbrace]) as [->|_]; [|discriminate]. intros [= <- <- <-]. exact (PLong inner p r2 segs m' r4 N F IN).
    + destruct (bytes_eqb_spec e [c_rbrace]) as [->|_]; [|discriminate]. intros [= <- <- <-]. exact (PShort inner p r2 N F).
  - intros [t r T|p r2 N F|p r2 segs m' r4 N F IN]; unfold st_segment.
    + unfold relit, tok_is. destruct (bytes_eqb t [c_star]); [reflexivity|]. destruct (bytes_eqb t s_deep); [reflexivity|]. rewrite T. reflexivity.
    + rewrite (proj2 (st_field_path_spec _ p (tk c_rbrace :: r2)) (conj eq_refl (conj N (conj F eq_refl)))). reflexivity.
    + rewrite (proj2 (st_field_path_spec _ p (tk c_eq :: r2)) (conj eq_refl (conj N (conj F eq_refl)))), IN. reflexivity.
Qed.

(* what st_inner_sound concludes: the tokens [used] spell the segments, which obey the restrictions of their level
   (state 0: the template, state 2: inside a variable) *)
Definition seg_result (st : nat) (toks : list bytes) (segs : list seg) (m : bool) (rest : list bytes) : Prop :=
  exists used txts ar, toks = used ++ rest /\ Rsegs segs txts /\ txts <> [] /\ concat used = join_with c_slash txts /\
                       shaped st ar rest /\ level_ok st segs /\ m = is_multi (last segs SWild).
Definition st_inner_sound (inner : list bytes -> option (list seg * bool * list bytes)) : Prop :=
  forall st toks segs m rest, (st = 0 \/ st = 2)%nat -> Forall ne toks -> shaped st false toks ->
    inner toks = Some (segs, m, rest) ->
    exists used txts ar, toks = used ++ rest /\ Rsegs segs txts /\ txts <> [] /\ concat used = join_with c_slash txts /\
                         shaped st ar rest /\ level_ok st segs /\ m = is_multi (last segs SWild).

Lemma last_cons_ne {A} (a : A) l d : l <> [] -> last (a :: l) d = last l d.
Proof. destruct l; [contradiction | reflexivity]. Qed.

(* the conclusion of st_segment_sound in list form: one segment, and one segment in front of "/" and more *)
Lemma seg_result_one st used txt ar s rest : (st = 0 \/ st = 2)%nat -> Rseg s txt -> concat used = txt -> shaped st ar rest ->
  (st = 2%nat -> good_flat s = true) -> (st = 0%nat -> st_seg_ok s = true) -> seg_result st (used ++ rest) [s] (is_multi s) rest.
Proof.
  intros ST R C SH G2 G0. exists used, [txt], ar. split; [reflexivity|]. split; [exact (conj R I)|]. split; [discriminate|].
  split; [cbn; rewrite app_nil_r; exact C|]. split; [exact SH|]. split; [|reflexivity].
  destruct ST as [-> | ->]; cbn [level_ok forallb]; rewrite ?(G0 eq_refl), ?(G2 eq_refl); auto.
Qed.
Lemma seg_result_cons st used txt s r' more m r'' : (st = 0 \/ st = 2)%nat -> Rseg s txt -> concat used = txt ->
  (st = 2%nat -> good_flat s = true) -> (st = 0%nat -> st_seg_ok s = true) -> is_multi s = false ->
  seg_result st r' more m r'' -> seg_result st (used ++ tk c_slash :: r') (s :: more) m r''.
Proof.
  intros ST R C G2 G0 MS (used2 & txts2 & ar2 & -> & RS2 & TN2 & CU2 & SH2 & LV2 & MM2).
  destruct more as [|x more']; [destruct (Rsegs_ne _ _ RS2 TN2 eq_refl)|].
  exists (used ++ tk c_slash :: used2), (txt :: txts2), ar2.
  split; [rewrite <- app_assoc; reflexivity|]. split; [exact (conj R RS2)|]. split; [discriminate|].
  split; [rewrite concat_app; cbn [concat]; rewrite C, CU2; destruct txts2; [contradiction | reflexivity]|].
  split; [exact SH2|]. split; [|exact MM2].
  destruct ST as [-> | ->]; cbn [level_ok forallb] in *; destruct LV2 as [LA2 LB2].
  - rewrite (G0 eq_refl), LA2. change (multi_only_last (s :: x :: more')) with (negb (is_multi s) && multi_only_last (x :: more')). rewrite MS, LB2. auto.
  - rewrite (G2 eq_refl), LA2. change (deep_only_last (s :: x :: more')) with (negb (is_deep s) && deep_only_last (x :: more')).
    rewrite <- (flat_multi s (G2 eq_refl)), MS, LB2. auto.
Qed.

Lemma st_segment_sound inner st toks sg m rest : st_inner_sound inner -> (st = 0 \/ st = 2)%nat -> Forall ne toks -> shaped st false toks ->
  st_segment inner toks = Some (sg, m, rest) ->
  exists used txt ar, toks = used ++ rest /\ Rseg sg txt /\ concat used = txt /\ shaped st ar rest /\
                      (st = 2%nat -> good_flat sg = true) /\ (st = 0%nat -> st_seg_ok sg = true) /\ m = is_multi sg.
Proof.
  intros IS ST NE SH H. apply st_segment_spec in H. destruct H as [t r T|p r2 N F|p r2 segs m r4 N F IN]; inversion NE as [|? ? Nt Nr]; subst.
  { destruct (relit_ok t T Nt) as [G R]. exists [t], t, true. split; [reflexivity|]. split; [exact R|].
    split; [apply app_nil_r|]. split; [exact (shaped_literal st t r ST T Nt SH)|]. split; [intros _; exact G|].
    split; [intros _; exact (flat_ok _ G) | symmetry; exact (flat_multi _ G)]. }
  all: destruct (var_shaped st p _ ST Nr N F SH) as (-> & P2 & SHp & Nr1).
  - exists (tk c_lbrace :: toks_path p ++ [tk c_rbrace]), (c_lbrace :: join_with c_dot p ++ [c_rbrace]), false.
    split; [cbn; rewrite <- app_assoc; reflexivity|]. split; [apply Rseg_var; auto|].
    split; [cbn; rewrite concat_app, concat_toks_path; reflexivity|]. split; [exact (shaped_dtok 1 true (tk c_rbrace) r2 c_rbrace eq_refl SHp)|].
    split; [discriminate|]. split; [intros _|reflexivity]. apply st_seg_ok_var. repeat split; [exact N | exact P2 | discriminate].
  - (* "{path=segments}": the segments are read in state 2 *)
    inversion Nr1 as [|? ? _ Nr2]; subst. apply (shaped_dtok 1 true (tk c_eq) r2 c_eq eq_refl) in SHp.
    destruct (IS 2%nat _ _ _ _ (or_intror eq_refl) Nr2 SHp IN) as (usedi & txts & ar & -> & RS & TN & CI & SH3 & [LF LD] & ->).
    pose proof (Rsegs_ne _ _ RS TN) as SN.
    exists (tk c_lbrace :: toks_path p ++ tk c_eq :: usedi ++ [tk c_rbrace]),
           (c_lbrace :: join_with c_dot p ++ c_eq :: join_with c_slash txts ++ [c_rbrace]), false.
    split; [cbn; rewrite <- !app_assoc; cbn; rewrite <- !app_assoc; reflexivity|].
    split; [apply Rseg_var; split; [exact N|]; split; [exact P2|]; right; exists txts; auto|].
    split; [cbn; rewrite !concat_app; cbn; rewrite !concat_app; cbn; rewrite concat_toks_path, CI; reflexivity|].
    split; [exact (shaped_dtok 2 ar (tk c_rbrace) r4 c_rbrace eq_refl SH3)|]. split; [discriminate|].
    split; [intros _; apply st_seg_ok_var; auto|]. exact (flat_multi _ (proj1 (forallb_forall _ _) LF _ (in_last segs SWild SN))).
Qed.

Inductive PSegs (f : nat) : list bytes -> list seg -> bool -> list bytes -> Prop :=
| POne toks s ms r : st_segment (st_segments f) toks = Some (s, ms, r) -> ms = true \/ not_tok c_slash r -> PSegs f toks [s] ms r
| PMore toks s r' more m r'' : st_segment (st_segments f) toks = Some (s, false, tk c_slash :: r') ->
    st_segments f r' = Some (more, m, r'') -> PSegs f toks (s :: more) m r''.
Lemma st_segments_spec f toks segs m rest : st_segments (S f) toks = Some (segs, m, rest) <-> PSegs f toks segs m rest.
Proof.
  cbn [st_segments]. split.
  - destruct (st_segment (st_segments f) toks) as [[[s ms] r]|] eqn:SG; [|discriminate].
    destruct ms; [intros [= <- <- <-]; apply POne; auto|].
    destruct r as [|t r']; [intros [= <- <- <-]; apply POne; [exact SG | right; exact I]|].
    destruct (tok_is c_slash t) eqn:Ts; [|intros [= <- <- <-]; apply POne; [exact SG | right; exact Ts]].
    apply tok_is_eq in Ts. subst t. destruct (st_segments f r') as [[[more m'] r'']|] eqn:MORE; [|discriminate].
    intros [= <- <- <-]. exact (PMore f toks s r' more m' r'' SG MORE).
  - intros [toks' s ms r SG C|toks' s r' more m' r'' SG MORE]; rewrite SG; [|rewrite MORE; reflexivity].
    destruct ms; [reflexivity|]. destruct C as [C|C]; [discriminate|]. destruct r as [|t r']; [reflexivity|]. cbn [not_tok] in C. rewrite C. reflexivity.
Qed.

Theorem st_segments_sound : forall fuel, st_inner_sound (st_segments fuel).
Proof.
  induction fuel as [|f IH]; intros st toks segs m rest ST NE SH H; [discriminate H|].
  apply st_segments_spec in H. destruct H as [toks s ms r SG _|toks s r' more m r'' SG MORE];
    destruct (st_segment_sound _ _ _ _ _ _ IH ST NE SH SG) as (used & txt & ar & -> & R & C & SHr & G2 & G0 & M);
    [rewrite M; exact (seg_result_one st used txt ar s r ST R C SHr G2 G0)|].
  apply (seg_result_cons st used txt s r' more m r'' ST R C G2 G0 (eq_sym M)).
  exact (IH st _ _ _ _ ST (Forall_after _ _ _ _ NE) (shaped_slash st ar r' ST SHr) MORE).
Qed.

Definition StrictLang (t : template) (s : bytes) : Prop :=
  is_literal (t_verb t) = true /\
  ((t_segs t = [SLit []] /\ no_colon (t_verb t) = true /\
    (s = c_slash :: c_colon :: t_verb t \/ (t_verb t = [] /\ s = [c_slash])))
   \/
   (forallb st_seg_ok (t_segs t) = true /\ multi_only_last (t_segs t) = true /\
    exists txts, Rsegs (t_segs t) txts /\ txts <> [] /\
      ((s = c_slash :: join_with c_slash txts ++ c_colon :: t_verb t /\
        (is_var (last (t_segs t) SWild) = true \/ no_colon (t_verb t) = true))
       \/ (t_verb t = [] /\ s = c_slash :: join_with c_slash txts /\ no_colon (tok_flat (last (t_segs t) SWild)) = true)))).

Lemma forallb_removelast {A} (f : A -> bool) l : forallb f l = true -> forallb f (removelast l) = true.
Proof.
  induction l as [|a l IH]; intros H; [reflexivity|]. apply forallb_cons in H as [Ha H].
  destruct l; [reflexivity|]. change (removelast (a :: a0 :: l)) with (a :: removelast (a0 :: l)). cbn [forallb]. rewrite Ha. exact (IH H).
Qed.
Lemma snoc_last (segs : list seg) : segs <> [] -> segs = removelast segs ++ [last segs SWild].
Proof. apply app_removelast_last. Qed.
Lemma multi_only_last_snoc : forall l x y, multi_only_last (l ++ [x]) = multi_only_last (l ++ [y]).
Proof.
  induction l as [|a [|b l] IH]; intros x y; [reflexivity | reflexivity|].
  exact (f_equal (andb (negb (is_multi a))) (IH x y)).
Qed.
Lemma replace_last_ok segs x : segs <> [] -> forallb st_seg_ok segs = true -> multi_only_last segs = true -> st_seg_ok x = true ->
  forallb st_seg_ok (removelast segs ++ [x]) = true /\ multi_only_last (removelast segs ++ [x]) = true.
Proof.
  intros NE A B OK. destruct (exists_last NE) as (s0 & z & ->). rewrite removelast_last, (multi_only_last_snoc s0 x z), forallb_app in *.
  apply andb_true_iff in A. destruct A as [-> _]. cbn [forallb andb]. rewrite OK. auto.
Qed.
Lemma Rsegs_snoc_inv : forall a z txts, Rsegs (a ++ [z]) txts -> exists ta tz, txts = ta ++ [tz] /\ Rsegs a ta /\ Rseg z tz.
Proof.
  induction a as [|y a IH]; intros z txts R; (destruct txts as [|t txts]; [destruct R|]); destruct R as [R1 R2].
  - destruct txts; [|destruct R2]. exists [], t. auto.
  - destruct (IH z txts R2) as (ta & tz & -> & Ra & Rz). exists (t :: ta), tz. cbn. auto.
Qed.
Lemma Rsegs_snoc : forall segs txts, Rsegs segs txts -> segs <> [] ->
  Rsegs (removelast segs) (removelast txts) /\ Rseg (last segs SWild) (last txts []) /\ txts = removelast txts ++ [last txts []].
Proof.
  intros segs txts R NE. destruct (exists_last NE) as (a & z & ->). destruct (Rsegs_snoc_inv _ _ _ R) as (ta & tz & -> & Ra & Rz).
  rewrite !removelast_last, !last_last. auto.
Qed.
Lemma Rsegs_app : forall a ta b tb, Rsegs a ta -> Rsegs b tb -> Rsegs (a ++ b) (ta ++ tb).
Proof.
  induction a as [|x a IH]; intros ta b tb Ra Rb; destruct ta as [|t ta]; try destruct Ra; [exact Rb|].
  cbn [app]. split; [assumption | apply IH; assumption].
Qed.
Lemma join_snoc sep : forall l x y, join_with sep (l ++ [x ++ y]) = join_with sep (l ++ [x]) ++ y.
Proof.
  intros [|a l] x y; cbn [app join_with]; [rewrite !app_nil_r; reflexivity|].
  rewrite !flat_map_app. cbn [flat_map]. rewrite !app_nil_r, <- !app_assoc. reflexivity.
Qed.
Lemma eof_unique (toks0 pre post : list bytes) : ~ In 0 (concat toks0) -> toks0 ++ [eof] = pre ++ eof :: post -> pre = toks0 /\ post = [].
Proof.
  revert pre. induction toks0 as [|x toks0 IH]; intros [|p pre] NZ E; cbn in E.
  - injection E as <-. auto.
  - injection E as _ E. destruct pre; discriminate.
  - injection E as -> _. destruct NZ. left. reflexivity.
  - injection E as <- E. destruct (IH pre) as [-> ->]; [intros I0; apply NZ, in_or_app; right; exact I0 | exact E | auto].
Qed.

Definition Derives (segs : list seg) (txts : list bytes) : Prop :=
  forallb st_seg_ok segs = true /\ multi_only_last segs = true /\ Rsegs segs txts /\ txts <> [].

Lemma lang_root verb : is_literal verb = true -> no_colon verb = true ->
  StrictLang {| t_segs := [SLit []]; t_verb := verb |} (c_slash :: c_colon :: verb).
Proof. intros LV NC. split; [exact LV|]. left. split; [reflexivity|]. split; [exact NC|]. left. reflexivity. Qed.
Lemma lang_verb segs txts verb : Derives segs txts -> is_literal verb = true ->
  is_var (last segs SWild) = true \/ no_colon verb = true ->
  StrictLang {| t_segs := segs; t_verb := verb |} (c_slash :: join_with c_slash txts ++ c_colon :: verb).
Proof.
  intros (LA & LB & RS & TN) LV VF. split; [exact LV|]. right. split; [exact LA|]. split; [exact LB|].
  exists txts. split; [exact RS|]. split; [exact TN|]. left. split; [reflexivity | exact VF].
Qed.
Lemma lang_plain segs txts : Derives segs txts -> no_colon (tok_flat (last segs SWild)) = true ->
  StrictLang {| t_segs := segs; t_verb := [] |} (c_slash :: join_with c_slash txts).
Proof.
  intros (LA & LB & RS & TN) NC. split; [reflexivity|]. right. split; [exact LA|]. split; [exact LB|].
  exists txts. split; [exact RS|]. split; [exact TN|]. right. split; [reflexivity|]. split; [reflexivity | exact NC].
Qed.

Lemma st_finish_some segs verb lft t : st_finish segs verb lft = Some t ->
  t = {| t_segs := segs; t_verb := verb |} /\ exists post, lft = eof :: post.
Proof.
  unfold st_finish. destruct lft as [|e post]; [discriminate|]. destruct (bytes_eqb_spec e eof) as [->|_]; [|discriminate].
  intros [= <-]. eauto.
Qed.
Lemma finish_eof toks0 pre lft segs verb t : ~ In 0 (concat toks0) -> toks0 ++ [eof] = pre ++ lft ->
  st_finish segs verb lft = Some t -> t = {| t_segs := segs; t_verb := verb |} /\ pre = toks0.
Proof. intros NZ E H. destruct (st_finish_some _ _ _ _ H) as [-> [post ->]]. destruct (eof_unique _ _ _ NZ E) as [-> _]. auto. Qed.

(* template() on a last literal that holds a colon: the verb is what follows the last one *)
Lemma st_template_lit s0 lit verb lft : no_colon verb = true ->
  st_template (s0 ++ [SLit (lit ++ c_colon :: verb)]) lft =
  match lit, s0 with [], _ :: _ => None | _, _ => st_finish (s0 ++ [relit lit]) verb lft end.
Proof.
  intros NC. unfold st_template. rewrite last_last, removelast_last, (last_index_cut c_colon verb NC lit 0%nat None). cbn [Nat.add].
  rewrite firstn_exact, skipn_past. unfold relit.
  destruct (bytes_eqb_spec lit [c_star]) as [->|_]; [reflexivity|]. destruct (bytes_eqb_spec lit s_deep) as [->|_]; [reflexivity|].
  destruct lit; [|reflexivity]. rewrite app_length, Nat.add_1_r. destruct s0; reflexivity.
Qed.

(* template() after segments(): what is left is the end marker, after a variable possibly behind a verb token [w], and the
   text of the segments followed by that of [w] is in the language *)
Lemma st_template_sound segs txts lft t : Derives segs txts -> st_template segs lft = Some t ->
  exists w post, lft = w ++ eof :: post /\ StrictLang t (c_slash :: join_with c_slash txts ++ concat w).
Proof.
  intros D H. pose proof D as (LA & LB & RS & TN).
  pose proof (Rsegs_ne _ _ RS TN) as NE. destruct (exists_last NE) as (s0 & z & ->). destruct (Rsegs_snoc_inv _ _ _ RS) as (t0 & tz & -> & RS0 & Rz).
  pose proof H as H0. unfold st_template in H0. rewrite last_last in H0.
  assert (PLAIN : no_colon (tok_flat z) = true -> st_finish (s0 ++ [z]) [] lft = Some t ->
            exists w post, lft = w ++ eof :: post /\ StrictLang t (c_slash :: join_with c_slash (t0 ++ [tz]) ++ concat w)).
  { intros NC HF. destruct (st_finish_some _ _ _ _ HF) as [-> [post ->]]. exists [], post. split; [reflexivity|].
    cbn [concat]. rewrite app_nil_r. apply (lang_plain _ _ D). rewrite last_last. exact NC. }
  destruct z as [| |l|vp vinner].
  1,2: exact (PLAIN eq_refl H0).
  - (* a literal: with a colon, [relit lit] stands for what is in front of the verb *)
    cbn [Rseg] in Rz. destruct Rz as (-> & LNE & LL).
    destruct (cut_last c_colon l) as [F|(lit & verb & -> & NC)]; [rewrite (last_index_free _ _ _ _ F) in H0; exact (PLAIN F H0)|].
    rewrite (st_template_lit s0 lit verb lft NC) in H. rewrite lit_colon_split in LL. apply andb_true_iff in LL. destruct LL as [LLi LLv].
    exists []. cbn [concat app]. rewrite app_nil_r, join_snoc.
    destruct lit as [|c lit'].
    + (* nothing in front of the verb: only the root template *)
      destruct s0 as [|a s0]; [|discriminate H]. destruct (st_finish_some _ _ _ _ H) as [-> [post ->]]. exists post. split; [reflexivity|].
      destruct t0; [|destruct RS0]. exact (lang_root verb LLv NC).
    + destruct (relit_ok (c :: lit') LLi ltac:(discriminate)) as [G RX].
      destruct (st_finish_some _ _ _ _ H) as [-> [post ->]]. exists post. split; [reflexivity|].
      destruct (replace_last_ok _ (relit (c :: lit')) NE LA LB (flat_ok _ G)) as [LA' LB']. rewrite removelast_last in LA', LB'.
      apply lang_verb; [|exact LLv | right; exact NC]. split; [exact LA'|]. split; [exact LB'|].
      split; [apply Rsegs_app; [exact RS0 | exact (conj RX I)] | destruct t0; discriminate].
  - (* a variable: a verb token may follow *)
    destruct lft as [|t1 r1]; [discriminate|]. destruct (bytes_eqb t1 eof); [exact (PLAIN eq_refl H0)|].
    destruct (is_literal t1) eqn:LT; [|discriminate]. destruct t1 as [|c1 v]; [discriminate|].
    destruct (N.eqb_spec c1 c_colon) as [->|_]; [|discriminate].
    destruct (st_finish_some _ _ _ _ H0) as [-> [post ->]]. exists [c_colon :: v], post. split; [reflexivity|].
    cbn [concat]. rewrite app_nil_r. apply (lang_verb _ _ v D); [|left; rewrite last_last; reflexivity].
    rewrite <- lit_colon. exact LT.
Qed.

Lemma st_tokens path : ~ In 0 path ->
  Forall ne (st_tokenize path) /\ shaped 0 false (st_tokenize path) /\
  forall pre post, st_tokenize path = pre ++ eof :: post -> concat pre = path.
Proof.
  intros NZ. pose proof (scan_concat path 0%nat []) as C. cbn [rev app] in C. unfold st_tokenize. split; [|split].
  - apply Forall_app. split; [apply scan_ne | constructor; [discriminate | constructor]].
  - apply shaped_eof. exact (scan_shaped path 0%nat [] eq_refl).
  - intros pre post E. rewrite <- C in NZ. destruct (eof_unique _ _ _ NZ E) as [-> _]. exact C.
Qed.

Theorem st_parse_sound s t : st_parse s = Some t -> StrictLang t s.
Proof.
  unfold st_parse. destruct s as [|c path]; [discriminate|]. destruct (N.eqb_spec c c_slash) as [->|_]; [|discriminate].
  destruct (existsb (N.eqb 0) (c_slash :: path)) eqn:Gn; [discriminate|]. cbn [andb negb].
  assert (NONUL : ~ In 0 path).
  { intros I0. rewrite (proj2 (existsb_exists _ _)) in Gn; [discriminate|]. exists 0. split; [right; exact I0 | reflexivity]. }
  destruct (st_tokens path NONUL) as (NE & SH & PRE). cbv zeta.
  destruct (st_tokenize path) as [|t0 tr]; [discriminate|].
  destruct (bytes_eqb_spec t0 eof) as [->|_].
  - intros [= <-]. rewrite <- (PRE [] tr eq_refl). split; [reflexivity|]. left. auto.
  - destruct (st_segments (S (length (t0 :: tr))) (t0 :: tr)) as [[[segs mm] lft]|] eqn:SG; [|discriminate]. intros H.
    destruct (st_segments_sound _ 0%nat _ _ _ _ (or_introl eq_refl) NE SH SG) as (used & txts & ar & E1 & RS & TN & CU & _ & [LA LB] & _).
    destruct (st_template_sound segs txts lft t (conj LA (conj LB (conj RS TN))) H) as (w & post & -> & L).
    rewrite <- (PRE (used ++ w) post), concat_app, CU; [exact L | rewrite E1, <- app_assoc; reflexivity].
Qed.

(* the theorem applies to concrete accepted strings (the hypothesis is met) - and pins their derivation *)
Definition st_ex_text : bytes :=  (* /v1/{name=shelves/*/**}:list *)
  [47;118;49;47;123;110;97;109;101;61;115;104;101;108;118;101;115;47;42;47;42;42;125;58;108;105;115;116].
Example st_ex_parsed : st_parse st_ex_text =
  Some {| t_segs := [SLit [118;49]; SVar [[110;97;109;101]] [SLit [115;104;101;108;118;101;115]; SWild; SDeep]]; t_verb := [108;105;115;116] |}.
Proof. vm_compute. reflexivity. Qed.
Example st_ex_in_language : exists t, st_parse st_ex_text = Some t /\ StrictLang t st_ex_text.
Proof. eexists. split; [exact st_ex_parsed | apply st_parse_sound, st_ex_parsed]. Qed.
Example st_ex_nested : st_parse [47;123;97;61;123;98;125;125] = None.       (* /{a={b}} *)
Proof. vm_compute. reflexivity. Qed.
Example st_ex_deep_mid : st_parse [47;42;42;47;97] = None.                  (* /**/a *)
Proof. vm_compute. reflexivity. Qed.
