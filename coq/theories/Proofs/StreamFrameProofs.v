From GB Require Import Model.StreamFrame Proofs.ListFacts.
From Coq Require Import Lia.
Open Scope N_scope.

Lemma split_acc_nolf : forall j cur rest,
  no_lf j = true ->
  split_lines_acc cur (j ++ 10 :: rest) = let '(ls, r) := split_lines_acc [] rest in ((rev cur ++ j) :: ls, r).
Proof.
  induction j as [|c j IH]; intros cur rest H.
  - simpl. destruct (split_lines_acc [] rest). rewrite app_nil_r. reflexivity.
  - simpl in H. apply andb_prop in H as [Hc Hj]. apply negb_true_iff in Hc.
    simpl. rewrite Hc. rewrite (IH (c :: cur) rest Hj).
    destruct (split_lines_acc [] rest). simpl. rewrite <- app_assoc. reflexivity.
Qed.

(* NDJSON: the stream of any list of LF-free payloads splits back into exactly those records, nothing left over *)
Theorem ndjson_records js : forallb no_lf js = true -> split_lines (concat (map enc_line js)) = (js, []).
Proof.
  unfold split_lines. induction js as [|j js IH]; intros H; [reflexivity|].
  simpl in H. apply andb_prop in H as [Hj Hjs].
  cbn [map concat]. unfold enc_line at 1. rewrite <- app_assoc. cbn [app].
  rewrite (split_acc_nolf j [] _ Hj). rewrite (IH Hjs). reflexivity.
Qed.

(* a payload with a raw LF breaks the framing: this is why the JSON encoder must never emit one (F15) *)
Theorem ndjson_lf_breaks : exists j, split_lines (enc_line j) <> ([j], []).
Proof. exists [91; 10; 93]. vm_compute. discriminate. Qed.

Lemma prefix_data l : prefix_b s_data (s_data ++ l) = true.
Proof. reflexivity. Qed.

Lemma split_event j rest : no_lf j = true ->
  split_lines_acc [] (enc_event j ++ rest) =
  let '(ls, r) := split_lines_acc [] rest in ((s_data ++ j) :: [] :: ls, r).
Proof.
  intros H. unfold enc_event. rewrite (app_assoc s_data j), <- (app_assoc (s_data ++ j)). cbn [app].
  assert (H2 : no_lf (s_data ++ j) = true) by (unfold no_lf in *; rewrite forallb_app, H; reflexivity).
  rewrite (split_acc_nolf (s_data ++ j) [] _ H2). cbn [rev app split_lines_acc N.eqb Pos.eqb].
  destruct (split_lines_acc [] rest). reflexivity.
Qed.

Theorem sse_records js : forallb no_lf js = true -> split_events (concat (map enc_event js)) = Some js.
Proof.
  unfold split_events, split_lines.
  assert (G : forall js, forallb no_lf js = true ->
            exists ls, split_lines_acc [] (concat (map enc_event js)) = (ls, []) /\ events_of_lines ls = Some js).
  { induction js0 as [|j js0 IH]; intros H; [exists []; split; reflexivity|].
    simpl in H. apply andb_prop in H as [Hj Hjs]. destruct (IH Hjs) as (ls & E1 & E2).
    cbn [map concat]. rewrite (split_event j _ Hj), E1.
    exists ((s_data ++ j) :: [] :: ls). split; [reflexivity|].
    cbn [events_of_lines]. rewrite prefix_data, E2. reflexivity. }
  intros H. destruct (G js H) as (ls & E1 & E2). rewrite E1. exact E2.
Qed.

Lemma strip_false_b s b : strip_ws_go false b s = strip_ws_go false false s.
Proof. destruct s; reflexivity. Qed.

Lemma strip_go_idem : forall s a b, strip_ws_go a b (strip_ws_go a b s) = strip_ws_go a b s.
Proof.
  induction s as [|c s IH]; intros a b; [reflexivity|]. cbn [strip_ws_go].
  destruct a.
  - destruct b; [cbn [strip_ws_go]; f_equal; apply IH|].
    destruct (c =? 92) eqn:E1; [cbn [strip_ws_go]; rewrite E1; f_equal; apply IH|].
    destruct (c =? 34) eqn:E2; cbn [strip_ws_go]; rewrite E1, E2; f_equal; apply IH.
  - destruct ((c =? 32) || (c =? 9) || (c =? 10) || (c =? 13)) eqn:W.
    + rewrite strip_false_b. apply IH.
    + destruct (c =? 34) eqn:E2; cbn [strip_ws_go]; rewrite W, E2; f_equal; apply IH.
Qed.
Theorem strip_ws_idempotent s : strip_ws (strip_ws s) = strip_ws s.
Proof. apply strip_go_idem. Qed.

(* WebSocket: one-to-one for client-streaming methods; only the first frame otherwise *)
Theorem ws_one_to_one ps : ws_requests true true (map (fun p => (true, p)) ps) = WsOk ps.
Proof. unfold ws_requests. induction ps as [|p ps IH]; [reflexivity|]. simpl. rewrite IH. reflexivity. Qed.

Theorem ws_only_first p rest : ws_requests false true ((true, p) :: rest) = WsOk [p].
Proof. reflexivity. Qed.

Theorem ws_wrong_type_refused ps p rest :
  ws_requests true true (map (fun p => (true, p)) ps ++ (false, p) :: rest) = WsWrongType ps.
Proof. unfold ws_requests. induction ps as [|q ps IH]; [reflexivity|]. simpl. rewrite IH. reflexivity. Qed.

Theorem ws_close_codes_canonical : Extracted.ws_close_codes = [1000; 1001; 1003]%Z.
Proof. reflexivity. Qed.

Theorem ws_close_spec outcome : ws_close 0 false = 1000%Z /\ ws_close outcome true = 1003%Z /\ (outcome <> 0%Z -> ws_close outcome false = 1001%Z).
Proof. repeat split. intros H. unfold ws_close. destruct (Z.eqb_spec outcome 0); [contradiction | reflexivity]. Qed.

Lemma rune_cut_le : forall n s, (rune_cut n s <= n)%nat.
Proof. induction n as [|m IH]; intros s; cbn [rune_cut]; [lia|]. destruct (is_cont (nth (S m) s 0%N)); [specialize (IH s); lia | lia]. Qed.

Lemma rune_cut_start : forall n s, rune_cut n s = O \/ is_cont (nth (rune_cut n s) s 0%N) = false.
Proof.
  induction n as [|m IH]; intros s; cbn [rune_cut]; [left; reflexivity|].
  destruct (is_cont (nth (S m) s 0%N)) eqn:E; [apply IH | right; exact E].
Qed.

(* the reason of the close frame: at most 123 bytes, a prefix of the full reason, never cut inside a character *)
Theorem truncate_reason_spec : forall s,
  (length (truncate_reason s) <= max_reason)%nat /\
  (exists rest, s = truncate_reason s ++ rest /\
     (rest = [] \/ truncate_reason s = [] \/ is_cont (hd 0%N rest) = false)).
Proof.
  intros s. unfold truncate_reason. destruct (Nat.leb_spec (length s) max_reason) as [L|L].
  - split; [exact L|]. exists []. rewrite app_nil_r. auto.
  - pose proof (rune_cut_le max_reason s) as C. split.
    + rewrite firstn_length. apply Nat.le_trans with (rune_cut max_reason s); [apply Nat.le_min_l | exact C].
    + exists (skipn (rune_cut max_reason s) s). split; [symmetry; apply firstn_skipn|].
      destruct (rune_cut_start max_reason s) as [Z|S].
      * right. left. rewrite Z. reflexivity.
      * right. right. rewrite hd_skipn. exact S.
Qed.

(* a long reason of two-byte characters: the cut backs up to the character boundary (122 bytes, not 123) *)
Example truncate_two_byte : length (truncate_reason (concat (repeat [195; 169]%N 70))) = 122%nat.
Proof. vm_compute. reflexivity. Qed.

(* the limit is the one in the source (regenerated on every run) *)
Lemma max_reason_source : max_reason = Extracted.ws_max_reason.
Proof. reflexivity. Qed.
