(* C01, the "nothing is dropped" half: in a fault-free call (no context event, no adapter failure, a conformant
   target) a returned Forward has delivered ALL response messages, reports the target's final status, and - when the
   target's final item waited for the whole request stream - has delivered all requests and the half-close. *)
From GB Require Import Model.Forward Proofs.ForwardProofs.
From RecordUpdate Require Import RecordSet.
Import RecordSetNotations.
From Coq Require Import Lia.
Open Scope Z_scope.

(* the item that ends the target's script (the first that is no message), and the result a call that saw it has to report *)
Fixpoint term_of (l : list (nat * bool * outitem)) : option (nat * bool * outitem) :=
  match l with
  | [] => None
  | (n, b, OMsg _) :: r => term_of r
  | x :: _ => Some x
  end.
Definition exp_res (t : outitem) : res := match t with OErr e => RErr e | _ => RNil end.
(* Main has picked the result it will return; that result; the result a pump's report stands for *)
Definition picked (m : mpc) : bool := match m with MDClose _ | MDCancel _ | MDWait _ | MRet _ => true | _ => false end.
Definition res_of (m : mpc) : res := match m with MDClose r | MDCancel r | MDWait r | MRet r => r | _ => RNil end.
Definition fres (f : ferr) : res := match f with FIn (ESt e) | FOut (ESt e) => RErr e | FIn EEof | FOut EEof => RErr (-1) | FOk => RNil end.

Lemma term_at tr : forall p x n b it,
  firstn p (items tr) = map OMsg x -> nth_error tr p = Some (n, b, it) -> (forall m, it <> OMsg m) ->
  term_of tr = Some (n, b, it) /\ out_msgs tr = x.
Proof.
  induction tr as [|[[n0 b0] it0] tr IH]; intros p x n b it F N NM; [destruct p; discriminate|].
  destruct p as [|p].
  - cbn in N. injection N as -> -> ->. destruct x; [|discriminate]. destruct it; try (split; reflexivity). exfalso. eapply NM; reflexivity.
  - cbn in F, N. destruct x as [|m x]; [discriminate|]. cbn in F. injection F as -> F.
    destruct (IH p x n b it F N NM) as [T O]. cbn. rewrite T, O. split; reflexivity.
Qed.

Section FFree.
  Variable sc : script.
  Variables (tn : nat) (thc : bool) (tt : outitem).

  Record FF : Prop := {
    ff_ctx : ctx_kind sc = CtxNone;
    ff_isf : in_send_fail sc = None;
    ff_osf : out_send_fail sc = None;
    ff_open : open_res sc = OpenOk;
    ff_in : forall p e, nth_error (in_recv sc) p <> Some (IErr e);
    ff_in_unary : client_streaming sc = false -> exists m rest, in_recv sc = IMsg m :: rest;
    ff_out_unary : server_streaming sc = false ->
       (exists n b e rest, out_recv sc = (n, b, OErr e) :: rest) \/
       (exists n b m n' b' rest, out_recv sc = (n, b, OMsg m) :: (n', b', OEof) :: rest);
    ff_term : term_of (out_recv sc) = Some (tn, thc, tt)
  }.
  Hypothesis ff : FF.

  (* what the target's final item waited for has happened *)
  Definition Ready (s : state) : Prop := (tn <= length (sent_out s))%nat /\ (thc = true -> (0 < close_send s)%nat).
  (* [r] is the target's own final status, and every response has been delivered *)
  Definition Good (r : res) (s : state) : Prop :=
    r = exp_res tt /\ sent_in s = out_msgs (out_recv sc) /\ Ready s.

  (* until Main has picked a result nothing has gone wrong: nobody cancelled or closed; the client pump can only report the
     end of the requests; the target pump only the target's final status; Main has not consumed a request yet *)
  Definition InOk (s : state) : Prop :=
    match ip s with IPut f => f = FIn EEof | _ => True end /\
    match islot s with Some f => f = FIn EEof | None => True end.
  Definition OutOk (s : state) : Prop :=
    match op s with
    | OPut f => Good (fres f) s
    | OUSend m => Good RNil (s <| sent_in := [m] |>)        (* the unary response is held until the target's end is seen: Good once it is sent *)
    | _ => True
    end /\
    match oslot s with Some f => Good (fres f) s | None => True end.
  Definition MainOk (s : state) : Prop :=
    match mp s with M0 => in_pos s = 0%nat | MURecv => in_pos s = 0%nat /\ client_streaming sc = false | _ => True end.
  Definition Pre (s : state) : Prop :=
    cancel_called s = false /\ closed s = 0%nat /\ InOk s /\ OutOk s /\ MainOk s.
  (* the result Main picked is the target's, and the target pump had finished *)
  Definition Post (s : state) : Prop := op s = ODone /\ Good (res_of (mp s)) s.
  Definition FInv (s : state) : Prop := fired s = CtxNone /\ if picked (mp s) then Post s else Pre s.

  Lemma ready_mono s s' : Ready s -> (length (sent_out s) <= length (sent_out s'))%nat ->
    (close_send s <= close_send s')%nat -> Ready s'.
  Proof. intros [A B] L C. split; [lia | intros H; specialize (B H); lia]. Qed.

  (* the target pump takes an item that is not a message, having taken the messages [x] before: it is the final item, it was
     enabled, and [x] is everything the target sends *)
  Lemma final_item s n b it x :
    firstn (out_pos s) (items (out_recv sc)) = map OMsg x -> nth_error (out_recv sc) (out_pos s) = Some (n, b, it) ->
    (forall m, it <> OMsg m) ->
    ((n <=? length (sent_out s))%nat && (negb b || (0 <? close_send s)%nat))%bool = true ->
    tt = it /\ out_msgs (out_recv sc) = x /\ Ready s.
  Proof.
    intros F N NM E. destruct (term_at _ _ _ _ _ _ F N NM) as [T O]. rewrite (ff_term ff) in T.
    injection T as <- <- <-. split; [reflexivity|]. split; [exact O|].
    apply andb_true_iff in E as [E1 E2]. apply Nat.leb_le in E1. split; [exact E1|].
    intros B. rewrite B in E2. cbn [negb orb] in E2. apply Nat.ltb_lt in E2. exact E2.
  Qed.

  (* [Ready] only becomes truer, so [Good] and the target pump's clause survive a step that leaves that pump alone *)
  Lemma good_mono r s s' : Good r s -> sent_in s' = sent_in s -> (length (sent_out s) <= length (sent_out s'))%nat ->
    (close_send s <= close_send s')%nat -> Good r s'.
  Proof. intros (A & B & C) E L K. split; [exact A|]. split; [congruence | eapply ready_mono; eauto]. Qed.

  Lemma outok_mono s s' : OutOk s -> op s' = op s -> oslot s' = oslot s -> sent_in s' = sent_in s ->
    (length (sent_out s) <= length (sent_out s'))%nat -> (close_send s <= close_send s')%nat -> OutOk s'.
  Proof.
    unfold OutOk. intros [A B] -> -> E L K. split.
    - destruct (op s); auto; eapply good_mono; eauto.
    - destruct (oslot s); [eapply good_mono; eauto | exact I].
  Qed.

  (* a conformant unary target answers with an error, or with one message and then the end *)
  Lemma unary_first p n b : server_streaming sc = false -> firstn p (items (out_recv sc)) = [] ->
    nth_error (out_recv sc) p = Some (n, b, OEof) -> False.
  Proof.
    intros SS F N. destruct (ff_out_unary ff SS) as [(n0 & b0 & e & rest & E)|(n0 & b0 & m0 & n' & b' & rest & E)];
      rewrite E in *; destruct p; discriminate.
  Qed.
  Lemma unary_second p m n b it : server_streaming sc = false -> firstn p (items (out_recv sc)) = [OMsg m] ->
    nth_error (out_recv sc) p = Some (n, b, it) -> it = OEof.
  Proof.
    intros SS F N. destruct (ff_out_unary ff SS) as [(n0 & b0 & e & rest & E)|(n0 & b0 & m0 & n' & b' & rest & E)];
      rewrite E in *; destruct p as [|[|p]]; try discriminate. injection N as _ _ <-. reflexivity.
  Qed.

  Lemma finv_post s s' : fired s = CtxNone -> picked (mp s) = true -> Post s -> step sc s s' -> FInv s'.
  Proof.
    intros F1 P [Po Pg] Hs. pose proof (ff_ctx ff) as Fc.
    step_cases Hs; try congruence; use_pcs; try discriminate P; case_vars; unfold FInv, Post; cbn; rewrite ?P;
      (split; [exact F1 | split; [exact Po|]]);
      (eapply good_mono; [exact Pg | reflexivity | cbn; rewrite ?app_length; lia | cbn; lia]).
  Qed.

  Local Arguments map : simpl never.

  Lemma finv_pre s s' : Reach sc s -> fired s = CtxNone -> picked (mp s) = false -> Pre s -> step sc s s' -> FInv s'.
  Proof.
    intros R F1 P (Pc & Pl & Pin & Pout & Pm) Hs.
    destruct ff as [Fc Fis Fos Fop _ _ _ _].
    assert (Cd : ctx_done s = false) by (unfold ctx_done; rewrite Pc, F1; reflexivity).
    destruct (struct_inv sc s R) as (SA & _ & _ & _ & _ & SO & _).
    destruct (data_inv sc s R) as (_ & _ & _ & _ & D5 & _ & D7 & _ & _ & D10 & _). unfold live_o, unary_pre, pend_o in D5, D7.
    (* no context event, nothing closed, no adapter fails: most outcomes of the calls go at once *)
    step_cases Hs; try congruence;
      try match goal with Q : _ = true |- _ => rewrite ?Cd, ?andb_false_r, ?Pl in Q; discriminate Q end;
      case_vars; unfold FInv; cbn; rewrite ?P; try (exfalso; eapply (ff_in ff); eassumption); (split; [exact F1|]);
      try (unfold Pre; cbn; split; [exact Pc|]; split; [exact Pl|]; split; [try exact Pin | split; [|try exact Pm]]);
      (* a step of Main or of the client pump leaves the target pump's clause alone *)
      try (eapply outok_mono; [exact Pout | reflexivity | reflexivity | reflexivity | cbn; rewrite ?app_length; lia | cbn; lia]);
      try exact I;
      (* the clauses of Main and of the client pump that hold by what the step's premises say (without the facts about the
         target pump: [cbn in *] need not visit them) *)
      try solve [clear SA SO D5 D7 D10; unfold InOk, MainOk in *; use_pcs; cbn in *; destruct Pin; repeat split; auto; congruence].
    (* Main's unary Recv finds the request (ff_in_unary) *)
    all: try solve [unfold MainOk in Pm; use_pcs; destruct (ff_in_unary ff (proj2 Pm)) as (? & ? & E);
                    match goal with N : nth_error (in_recv sc) _ = _ |- _ => rewrite E, (proj1 Pm) in N; discriminate N end].
    (* the client pump consumes a request: Main is past its own Recv *)
    all: try match goal with |- MainOk _ =>
           unfold MainOk; cbn; destruct (mp s); try exact I; destruct (SA eq_refl) as [X|[_ []]]; congruence end.
    (* the target pump is where OutOk claims nothing of it: Main starts it, or it has taken a message *)
    all: try solve [split; [exact I | exact (proj2 Pout)]].
    (* what the target pump has reported is in its slot and that pump is done (Struct); else the slot is empty *)
    all: destruct Pout as [Po1 Po2]; destruct (oslot s) eqn:Os; [specialize (SO ltac:(discriminate)) | clear SO]; try congruence.
    (* Main takes the target pump's report, which is Good *)
    all: try solve [match goal with Q : Some _ = Some _ |- _ => injection Q as -> end; split; [exact SO | exact Po2]].
    (* the target pump moves: Data says which responses it has taken *)
    all: unfold OutOk, Good; cbn; rewrite ?Os;
         match goal with Q : op _ = _ |- _ => rewrite Q in D5, D7, D10, Po1 end; cbn in D5, D7, D10, Po1;
         try specialize (D5 eq_refl ltac:(discriminate)); try (specialize (D7 eq_refl); rewrite D7 in * ); rewrite ?app_nil_r in *;
         split; try exact I; try exact Po1;
         try (destruct (server_streaming sc) eqn:SS; [destruct (D10 eq_refl)|]).
    (* a unary target neither ends at once nor goes on after its message *)
    all: try solve [exfalso; eapply unary_first; eassumption].
    all: try match goal with N : nth_error (out_recv sc) _ = _ |- _ => discriminate (unary_second _ _ _ _ _ SS D5 N) end.
    (* the final item *)
    all: match goal with N : nth_error (out_recv sc) _ = _, G : (_ && _)%bool = true |- _ =>
           destruct (final_item s _ _ _ _ D5 N ltac:(discriminate) G) as (T1 & T2 & T3) end;
         rewrite ?T1; repeat split; auto; apply T3.
  Qed.

  Theorem finv_reach : forall s, Reach sc s -> FInv s.
  Proof.
    apply reach_ind.
    - split; [reflexivity|]. cbn. unfold Pre, InOk, OutOk, MainOk. cbn. auto 8.
    - intros s s' R [F1 Fi] Hs. destruct (picked (mp s)) eqn:P; [eapply finv_post | eapply finv_pre]; eauto.
  Qed.

  (* a returned fault-free call reports the target's final status, has delivered every response message, and has
     satisfied whatever the target's final item was waiting for *)
  Theorem fault_free_complete s r : Reach sc s -> mp s = MRet r ->
    r = exp_res tt /\ sent_in s = out_msgs (out_recv sc) /\
    (tn <= length (sent_out s))%nat /\ (thc = true -> (0 < close_send s)%nat).
  Proof.
    intros R E. destruct (finv_reach s R) as [_ Fi]. unfold Post in Fi. rewrite E in Fi. destruct Fi as (_ & H1 & H2 & H3 & H4).
    split; [exact H1|]. split; [exact H2|]. split; assumption.
  Qed.

  (* ... in particular, when the target ends the call only after the whole request stream, the target has received
     exactly the client's messages *)
  Theorem fault_free_requests_complete s r : Reach sc s -> mp s = MRet r ->
    tn = length (in_msgs (in_recv sc)) -> sent_out s = in_msgs (in_recv sc).
  Proof.
    intros R E T. destruct (fault_free_complete s r R E) as (_ & _ & H & _).
    destruct (requests_prefix sc s R) as [k Hk]. rewrite Hk in *. rewrite firstn_length in H.
    apply firstn_all2. lia.
  Qed.
End FFree.

(* the hypotheses are satisfiable and the conclusion is reached: a fault-free bidirectional call that returns *)
Definition sc_ff : script :=
  {| client_streaming := true; server_streaming := true; in_recv := [IMsg 1; IMsg 2; IEof]; in_send_fail := None;
     open_res := OpenOk; out_send_fail := None;
     out_recv := [(1%nat, false, OMsg 10); (2%nat, true, OMsg 11); (2%nat, true, OEof)];
     ctx_kind := CtxNone; in_aware := true; out_aware := true |}.
Example ff_example : FF sc_ff 2 true OEof.
Proof.
  constructor; cbn; try reflexivity; try discriminate.
  intros p e. destruct p as [|[|[|[|p]]]]; cbn; discriminate.
Qed.

Example ff_example_returns : exists s,
  run_sched sc_ff (repeat 0%nat 20) init = Some s /\ mp s = MRet RNil /\ sent_out s = [1; 2] /\ sent_in s = [10; 11] /\ close_send s = 1%nat.
Proof. eexists. split; [vm_compute; reflexivity|]. repeat split. Qed.
