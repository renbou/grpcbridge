(* Byte strings as keys: [bytes_eqb] decides equality (and [val_eqb] that of values); association lists keyed by byte strings. *)
From GB Require Import Base.Val.

Lemma bytes_eqb_spec a b : reflect (a = b) (bytes_eqb a b).
Proof.
  unfold bytes_eqb. revert b. induction a as [|x a IH]; intros [|y b]; cbn [list_eqb]; try (constructor; congruence).
  destruct (N.eqb_spec x y) as [->|N]; cbn [andb]; [|constructor; congruence].
  destruct (IH b) as [->|N]; constructor; congruence.
Qed.
Lemma bytes_eqb_refl a : bytes_eqb a a = true.
Proof. destruct (bytes_eqb_spec a a); congruence. Qed.
Lemma bytes_eqb_sym a b : bytes_eqb a b = bytes_eqb b a.
Proof. destruct (bytes_eqb_spec a b), (bytes_eqb_spec b a); congruence. Qed.
Lemma bytes_eqb_eq a b : bytes_eqb a b = true <-> a = b.
Proof. destruct (bytes_eqb_spec a b); split; congruence. Qed.
Lemma bytes_eqb_neq a b : bytes_eqb a b = false <-> a <> b.
Proof. destruct (bytes_eqb_spec a b); split; congruence. Qed.

Lemma val_eqb_spec : forall a b, reflect (a = b) (val_eqb a b).
Proof.
  fix IH 1. intros [x|x|x] [y|y|y]; cbn [val_eqb]; try (constructor; congruence).
  - destruct (Z.eqb_spec x y); constructor; congruence.
  - destruct (bytes_eqb_spec x y); constructor; congruence.
  - revert y. induction x as [|u x IHx]; intros [|v y]; try (constructor; congruence).
    destruct (IH u v) as [->|N]; cbn [andb]; [|constructor; congruence]. destruct (IHx y) as [E|N]; constructor; congruence.
Qed.

Lemma mem_In k l : existsb (bytes_eqb k) l = true <-> In k l.
Proof.
  rewrite existsb_exists. split; [intros (x & I & E); apply bytes_eqb_eq in E; congruence|].
  intros I. exists k. split; [exact I | apply bytes_eqb_refl].
Qed.

Lemma mem_filter (f : bytes -> bool) k l : existsb (bytes_eqb k) (filter f l) = existsb (bytes_eqb k) l && f k.
Proof.
  induction l as [|a l IH]; [reflexivity|]. cbn [filter existsb].
  destruct (f a) eqn:Fa; cbn [existsb]; rewrite IH; destruct (bytes_eqb_spec k a) as [->|]; try reflexivity;
    rewrite Fa; destruct (existsb (bytes_eqb a) l); reflexivity.
Qed.

(* One association list, written down once per table in the models and in the specifications of the proof files
   (s_load/s_delete/s_store, c_get/c_delete/c_append, sd_delete/sd_insert, a_del/a_set, p_load/p_delete/p_store,
   md_lookup/md_del_raw, Json.lookup_name, RoutersProofs.lget/lset/ldel): a lookup that stops at the first hit, deletion by
   [filter], storing by cons after deletion.  The functions below have those bodies, with the value type (and the
   default) bound OUTSIDE the fixpoint, so that the laws of each table are instances of the lemmas here by conversion:
   [exact (aget_adel k k' t)].  (RouteConc.a_get and a_insert bind their type inside the fixpoint; they agree with [aget] /
   [ains] by an induction.) *)
Section Assoc.
  Context {A : Type}.
  Implicit Types (k : bytes) (l : list (bytes * A)).

  Fixpoint aget k l : option A :=
    match l with [] => None | (k', v) :: r => if bytes_eqb k k' then Some v else aget k r end.
  Definition adel k l : list (bytes * A) := filter (fun kv => negb (bytes_eqb k (fst kv))) l.
  Definition aset k (v : A) l : list (bytes * A) := (k, v) :: adel k l.

  Lemma aget_adel k k' l : aget k (adel k' l) = if bytes_eqb k k' then None else aget k l.
  Proof.
    induction l as [|[k2 v] l IH]; cbn [adel filter aget fst]; [destruct (bytes_eqb k k'); reflexivity|].
    fold (adel k' l). destruct (bytes_eqb_spec k' k2) as [<-|N]; cbn [negb aget]; rewrite IH; [destruct (bytes_eqb k k'); reflexivity|].
    destruct (bytes_eqb_spec k k2) as [->|]; [|reflexivity]. rewrite (proj2 (bytes_eqb_neq k2 k')) by congruence. reflexivity.
  Qed.

  Lemma aget_aset k k' v l : aget k (aset k' v l) = if bytes_eqb k k' then Some v else aget k l.
  Proof. cbn [aset aget]. rewrite aget_adel. destruct (bytes_eqb k k'); reflexivity. Qed.

  Lemma aget_fold_adel ks : forall l k,
    aget k (fold_left (fun l k' => adel k' l) ks l) = if existsb (bytes_eqb k) ks then None else aget k l.
  Proof.
    induction ks as [|a ks IH]; intros l k; [reflexivity|]. cbn [fold_left existsb]. rewrite IH, aget_adel.
    destruct (bytes_eqb k a), (existsb (bytes_eqb k) ks); reflexivity.
  Qed.

  Lemma aget_In k v l : aget k l = Some v -> In (k, v) l.
  Proof.
    induction l as [|[k' v'] l IH]; cbn [aget]; [discriminate|].
    destruct (bytes_eqb_spec k k') as [<-|]; [intros [= ->]; left; reflexivity | right; auto].
  Qed.

  Lemma aget_NoDup k v l : NoDup (map fst l) -> In (k, v) l -> aget k l = Some v.
  Proof.
    induction l as [|[k' v'] l IH]; intros ND I; [destruct I|]. inversion ND as [|? ? NI ND']; subst. cbn [aget].
    destruct I as [[= -> ->]|I]; [rewrite bytes_eqb_refl; reflexivity|].
    destruct (bytes_eqb_spec k k') as [->|_]; [destruct NI; exact (in_map fst _ _ I) | auto].
  Qed.

  Lemma In_adel k v k' l : In (k, v) (adel k' l) <-> In (k, v) l /\ k <> k'.
  Proof.
    unfold adel. rewrite filter_In. cbn [fst]. rewrite negb_true_iff, bytes_eqb_neq.
    split; intros [I N]; (split; [exact I | congruence]).
  Qed.

  (* the tables that answer a missing key with a default (c_get, md_lookup, RouteConcSvcProofs.claims_of) *)
  Variable d : A.
  Fixpoint agetd k l : A :=
    match l with [] => d | (k', v) :: r => if bytes_eqb k k' then v else agetd k r end.
  Lemma agetd_aget k l : agetd k l = match aget k l with Some v => v | None => d end.
  Proof. induction l as [|[k' v] l IH]; cbn [agetd aget]; [|destruct (bytes_eqb k k')]; auto. Qed.
  Lemma agetd_adel k k' l : agetd k (adel k' l) = if bytes_eqb k k' then d else agetd k l.
  Proof. rewrite !agetd_aget, aget_adel. destruct (bytes_eqb k k'); reflexivity. Qed.
  Lemma agetd_aset k k' v l : agetd k (aset k' v l) = if bytes_eqb k k' then v else agetd k l.
  Proof. rewrite !agetd_aget, aget_aset. destruct (bytes_eqb k k'); reflexivity. Qed.

  (* insertion in key order (sd_insert) only permutes *)
  Fixpoint ains (kv : bytes * A) l : list (bytes * A) :=
    match l with [] => [kv] | kv' :: r => if bytes_leb (fst kv) (fst kv') then kv :: l else kv' :: ains kv r end.
  Lemma In_ains (x kv : bytes * A) l : In x (ains kv l) <-> x = kv \/ In x l.
  Proof.
    induction l as [|kv' l IH]; cbn [ains]; [cbn; intuition congruence|].
    destruct (bytes_leb (fst kv) (fst kv')); cbn [In]; [|rewrite IH]; intuition congruence.
  Qed.
End Assoc.

(* "append to the list under n, or start one" (c_append of both router models) *)
Section App.
  Context {B : Type}.
  Fixpoint aapp (n : bytes) (x : B) (c : list (bytes * list B)) : list (bytes * list B) :=
    match c with [] => [(n, [x])] | (k, v) :: r => if bytes_eqb n k then (k, v ++ [x]) :: r else (k, v) :: aapp n x r end.
  Lemma agetd_aapp m n x c : agetd [] m (aapp n x c) = if bytes_eqb m n then agetd [] m c ++ [x] else agetd [] m c.
  Proof.
    induction c as [|[k v] c IH]; cbn [aapp agetd]; [destruct (bytes_eqb m n); reflexivity|].
    destruct (bytes_eqb_spec n k) as [<-|N]; cbn [agetd].
    - destruct (bytes_eqb m n); reflexivity.
    - destruct (bytes_eqb_spec m k) as [->|]; [|exact IH]. rewrite (proj2 (bytes_eqb_neq k n)) by congruence. reflexivity.
  Qed.
End App.
