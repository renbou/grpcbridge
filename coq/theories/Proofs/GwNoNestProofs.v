(* C03 / C20: the routing parser never returns nested variables, whatever the text.  As for the strict parser this is a
   property of the tokenizer (inside a variable '{' does not start a token), carried through the descent as [shaped]
   (Proofs/StrictProofs.v); it survives the cut of the verb off the last token.  So the hypothesis seg_ok of the C03
   matching theorems holds for every template the router can hold, and those theorems for every table built from texts. *)
From GB Require Import Model.Strict Proofs.ByteSearch Proofs.TemplateProofs Proofs.TemplateParseProofs Proofs.TemplateSoundProofs Proofs.StrictProofs.
Open Scope N_scope.

Definition never_dtok (t : bytes) : Prop := forall st, is_dtok st t = None.

(* a last token that is no delimiter in any state may be replaced by whatever can stand where it stood (a prefix of it,
   where the verb is cut off, or nothing) *)
Lemma shaped_cut_last toks st ar t r2 : shaped st ar (toks ++ [t]) -> never_dtok t -> t <> eof -> (forall st, shaped st false r2) ->
  shaped st ar (toks ++ r2).
Proof.
  intros SH ND NE R. refine (shaped_tail [t] r2 _ toks st ar SH). intros st' ar' S1.
  destruct (shaped_none _ _ _ _ (ND st') S1) as [[-> _]|E]; [apply R | contradiction].
Qed.

Lemma colon_never_dtok t : In c_colon t -> never_dtok t /\ t <> eof.
Proof.
  intros I. split.
  - intros st. unfold is_dtok. destruct t as [|d [|e r]]; try reflexivity.
    destruct I as [E|[]]. subst d. destruct st as [|[|st]]; reflexivity.
  - intros ->. destruct I as [X|[]]. discriminate.
Qed.

Lemma gw_tokenize_shaped path toks verb : gw_tokenize path = (toks, verb) -> shaped 0 false toks.
Proof.
  intros H. pose proof (scan_shaped path 0%nat [] eq_refl) as SH.
  apply gw_tokenize_inv in H as [[-> _]|(pre & a & E & ->)]; [apply shaped_eof, SH|]. rewrite E in SH.
  destruct (colon_never_dtok (a ++ c_colon :: verb)) as [ND NE]; [apply in_or_app; right; left; reflexivity|].
  apply (shaped_cut_last _ _ _ _ _ SH ND NE). intros st. destruct a as [|c a]; [apply shaped_eof_only|].
  cbn [app shaped]. destruct (is_dtok st (c :: a)); [apply shaped_eof_only | left; split; [reflexivity | apply shaped_eof_only]].
Qed.

(* what may come back in a tokenizer state: at the top level segments whose variables hold no variable, inside a variable
   no variable at all *)
Definition lvl (st : nat) (s : seg) : bool := match st with 2%nat => flat s | _ => seg_ok s end.
Definition gw_inner_flat (inner : list bytes -> option (list seg * list bytes)) : Prop :=
  forall st toks segs rest, (st = 0 \/ st = 2)%nat -> Forall ne toks -> shaped st false toks -> inner toks = Some (segs, rest) ->
    (exists ar, shaped st ar rest) /\ forallb (lvl st) segs = true.

Lemma gw_segment_flat inner st toks sg rest : gw_inner_flat inner -> (st = 0 \/ st = 2)%nat -> Forall ne toks -> shaped st false toks ->
  gw_segment false inner toks = Some (sg, rest) -> (exists ar, shaped st ar rest) /\ lvl st sg = true.
Proof.
  intros IS ST NE SH H. apply gw_segment_spec in H.
  destruct H as [r|r|t r L _ _|p r2 P1 P2|p r2 segs r4 P1 P2 IN]; inversion NE as [|? ? Nt Nr]; subst.
  1-3: split; [exists true; apply (shaped_literal st _ _ ST) in SH; [exact SH | reflexivity || exact L | exact Nt] | destruct ST as [-> | ->]; reflexivity].
  all: destruct (var_shaped st p _ ST Nr P1 (forallb_imp _ _ _ ident_st P2) SH) as (-> & _ & SHp & _).
  - split; [exists false; exact (shaped_dtok 1 true [c_rbrace] r2 c_rbrace eq_refl SHp) | reflexivity].
  - apply Forall_after in Nr as Nr2.
    destruct (IS 2%nat _ _ _ (or_intror eq_refl) Nr2 (shaped_dtok 1 true [c_eq] r2 c_eq eq_refl SHp) IN) as ([ar SH3] & FL).
    split; [exists false; exact (shaped_dtok 2 ar [c_rbrace] r4 c_rbrace eq_refl SH3) | exact FL].
Qed.

Theorem gw_segments_flat : forall fuel, gw_inner_flat (gw_segments false fuel).
Proof.
  induction fuel as [|f IH]; intros st toks segs rest ST NE SH H; [discriminate|]. apply gw_segments_spec in H as (s & r & SG & H).
  destruct (gw_segment_flat _ _ _ _ _ IH ST NE SH SG) as ([ar SHr] & F).
  destruct H as [(-> & -> & _)|(r' & more & -> & MORE & ->)]; cbn [forallb]; rewrite F; [eauto|].
  (* the segment consumed a prefix of the tokens: by the soundness lemma *)
  destruct (segment_sound _ _ _ _ (segments_sound f) NE SG) as (used & E1 & _).
  rewrite E1 in NE. apply Forall_after in NE as Nr'.
  exact (IH st _ _ _ ST Nr' (shaped_slash st ar r' ST SHr) MORE).
Qed.

Theorem gw_parse_no_nesting s t : gw_parse false s = Some t -> forallb seg_ok (t_segs t) = true.
Proof.
  intros H. apply gw_parse_inv in H as (path & toks & _ & _ & TK & _ & [(tr & _ & ->)|SG]); [reflexivity|].
  exact (proj2 (gw_segments_flat _ 0%nat _ _ _ (or_introl eq_refl) (proj1 (tokenize_sound _ _ _ TK)) (gw_tokenize_shaped _ _ _ TK) SG)).
Qed.

(* C03 without the hypothesis: every route the router can hold behaves like its template *)
Theorem route_step_any_text text t comps : gw_parse false text = Some t ->
  route_step false (compile t) (t_verb t) comps = spec_step t comps.
Proof. intros P. apply route_step_spec. exact (gw_parse_no_nesting _ _ P). Qed.

(* the routing table built from ANY description texts answers like the specification table *)
Lemma table_routes_ops targets method : table_routes targets method = map to_ops (spec_routes targets method).
Proof.
  unfold table_routes, spec_routes. rewrite concat_map. f_equal. rewrite map_map. apply map_ext. intros tv.
  rewrite concat_map. f_equal. rewrite map_map. apply map_ext. intros bv.
  destruct (bytes_eqb _ method); [|reflexivity]. destruct (gw_parse false _); [|reflexivity]. destruct (pattern_ok _); reflexivity.
Qed.

Lemma spec_routes_parsed targets method ti bi t : In (ti, bi, t) (spec_routes targets method) -> exists text, gw_parse false text = Some t.
Proof.
  unfold spec_routes. intros H. apply in_concat in H as (l1 & H1 & H). apply in_map_iff in H1 as (tv & <- & _).
  apply in_concat in H as (l2 & H2 & H). apply in_map_iff in H2 as (bv & <- & _).
  destruct (bytes_eqb _ method); [|destruct H]. destruct (gw_parse false (as_S (nthv 1 (snd bv)))) as [t'|] eqn:P; [|destruct H].
  destruct (pattern_ok _); [|destruct H]. destruct H as [E|[]]. injection E as _ _ <-. eexists. exact P.
Qed.

Theorem route_table_spec targets method comps :
  first_route false (table_routes targets method) comps = spec_route (spec_routes targets method) comps.
Proof.
  rewrite table_routes_ops. apply first_route_spec. intros ti bi t Hin.
  destruct (spec_routes_parsed _ _ _ _ _ Hin) as [text P]. exact (gw_parse_no_nesting _ _ P).
Qed.

(* ( 99 ) is what the harness records for a panic of RouteHTTP (prop_c03 answers it with 4) *)
Lemma first_route_not_99 : forall routes comps, first_route false routes comps <> VL [VN 99].
Proof. intros routes comps H. destruct (first_route_codes _ _ _ _ H); discriminate. Qed.

(* the model of RouteHTTP computes, on EVERY input, the answer that the executable statement of the property (prop_c03's
   [want], written out here) asks for *)
Theorem run_c03_is_spec v :
  run_c03 v = match as_S (nthv 3 v) with
              | c :: p => if (c =? c_slash)%N then spec_route (spec_routes (as_L (nthv 0 v)) (as_S (nthv 1 v))) (split_slash p [])
                          else VL [VN 3]
              | [] => VL [VN 3] end.
Proof.
  unfold run_c03. destruct (as_S (nthv 3 v)) as [|c p]; [reflexivity|]. destruct (c =? c_slash)%N; [apply route_table_spec | reflexivity].
Qed.
