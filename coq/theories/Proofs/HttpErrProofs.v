From GB Require Import Model.HttpErr Proofs.ListFacts.
From Coq Require Import Lia.
Open Scope Z_scope.

(* finite domain: the 17 gRPC codes 0..16; a boolean fact about all of them is read off the table by evaluation *)
Lemma codes_sweep (p : Z -> bool) : forallb p (map Z.of_nat (seq 0 17)) = true -> forall c, 0 <= c <= 16 -> p c = true.
Proof. intros H c R. apply (forallb_range Z.of_nat Z.to_nat p 17 H); lia. Qed.

Theorem code_table c : 0 <= c <= 16 -> http_of_code c = nth (Z.to_nat c) canonical_http 500.
Proof. intros H. apply Z.eqb_eq. revert c H. apply codes_sweep. vm_compute. reflexivity. Qed.

Theorem ok_only_for_ok c : 0 <= c <= 16 -> (http_of_code c = 200 <-> c = 0).
Proof.
  intros H. rewrite <- !Z.eqb_eq, <- Bool.eq_iff_eq_true. apply Bool.eqb_prop. revert c H. apply codes_sweep. vm_compute. reflexivity.
Qed.

Definition carries (b : body) : bool :=
  match b with BNone => false | BText m => m | BStatus _ m _ => m end.

(* C10 error shape: for every error before the first byte on a live request *)
Theorem error_shape bound encodable code override details :
  exists st b, write_error false false bound encodable code override details = Some (st, b) /\
    st = (match override with Some h => h | None => http_of_code code end) /\
    carries b = true /\
    (bound = true -> encodable = true -> b = BStatus code true details) /\
    (bound = false -> b = BText true) /\
    (bound = true -> encodable = false -> b = BText true).
Proof.
  unfold write_error. cbn [negb]. destruct bound, encodable; cbn; eexists; eexists; repeat split; intros; try discriminate; reflexivity.
Qed.

Theorem no_render_after_write canceled bound encodable code override details :
  write_error true canceled bound encodable code override details = None.
Proof. reflexivity. Qed.

Theorem canceled_is_499 bound encodable code override details :
  write_error false true bound encodable code override details = Some (499, BNone).
Proof. reflexivity. Qed.

(* F10: the code before the repair answered with an empty body when the status could not be encoded *)
Theorem fallback_body_old_refuted : exists code, write_error_old false false true false code None 1 = Some (http_of_code code, BNone).
Proof. exists 7. reflexivity. Qed.

Theorem negotiation_415 known default cts :
  pick_request known default cts = None <->
  cts <> [] /\ (forall m, In (Some m) cts -> existsb (bytes_eqb m) known = false).
Proof.
  unfold pick_request. destruct cts as [|c cts]; [split; [discriminate | intros [H _]; congruence]|].
  set (f := fun c0 : option bytes => match c0 with Some m => existsb (bytes_eqb m) known | None => false end).
  pose proof (filter_head f (c :: cts)) as FH. destruct (filter f (c :: cts)) as [|[x|] r].
  - split; [|reflexivity]. intros _. split; [discriminate|]. intros m I. apply (FH _ I).
  - split; [discriminate|]. intros [_ H]. destruct FH as [I E]. cbn in E. rewrite (H x I) in E. discriminate.
  - destruct FH as [_ E]. discriminate.
Qed.

Theorem negotiation_default known default : pick_request known default [] = Some default.
Proof. reflexivity. Qed.

Theorem response_follows_accept known req accepts a :
  In a accepts -> existsb (bytes_eqb a) known = true -> exists a', pick_response known req accepts = a' /\ In a' accepts /\ existsb (bytes_eqb a') known = true.
Proof.
  intros I E. unfold pick_response. pose proof (filter_head (fun a0 => existsb (bytes_eqb a0) known) accepts) as FH.
  destruct (filter _ accepts) as [|a' r]; [rewrite (FH a I) in E; discriminate | eauto].
Qed.

Theorem response_defaults_to_request known req accepts :
  (forall a, In a accepts -> existsb (bytes_eqb a) known = false) -> pick_response known req accepts = req.
Proof.
  intros H. unfold pick_response. pose proof (filter_head (fun a0 => existsb (bytes_eqb a0) known) accepts) as FH.
  destruct (filter _ accepts) as [|a' r]; [reflexivity|]. destruct FH as [I E]. rewrite (H a' I) in E. discriminate.
Qed.
