From GB Require Import Model.Lifecycle Proofs.Common Proofs.ListFacts.
Open Scope Z_scope.

Lemma p_load_delete n k p : p_load k (p_delete n p) = if bytes_eqb k n then None else p_load k p.
Proof. exact (aget_adel k n p). Qed.
Lemma p_load_store n e p k : p_load k (p_store n e p) = if bytes_eqb k n then Some e else p_load k p.
Proof. exact (aget_aset k n e p). Qed.

Lemma pool_new_load n f s k :
  p_load k (l_pool (fst (pool_new n f s))) =
  match p_load n (l_pool s), f with
  | None, false => if bytes_eqb k n then Some (Ready (l_next s)) else p_load k (l_pool s)
  | _, _ => p_load k (l_pool s)
  end.
Proof.
  unfold pool_new. destruct (p_load n (l_pool s)) eqn:L; [reflexivity|]. destruct f; cbn [fst l_pool].
  - rewrite p_load_delete, p_load_store. destruct (bytes_eqb_spec k n) as [->|]; congruence.
  - rewrite !p_load_store. destruct (bytes_eqb k n); reflexivity.
Qed.

Lemma pool_close_load n s k :
  p_load k (l_pool (pool_close n s)) =
  match p_load n (l_pool s) with
  | Some (Ready _) => if bytes_eqb k n then None else p_load k (l_pool s)
  | _ => p_load k (l_pool s)
  end.
Proof. unfold pool_close. destruct (p_load n (l_pool s)) as [[|c]|]; try reflexivity. apply p_load_delete. Qed.

Definition no_reserved (s : lstate) : Prop := forall n, p_load n (l_pool s) <> Some Reserved.

Lemma pool_new_inv n f s : no_reserved s -> no_reserved (fst (pool_new n f s)).
Proof. intros H k. rewrite pool_new_load. destruct (p_load n (l_pool s)), f; try apply H. destruct (bytes_eqb k n); [discriminate | apply H]. Qed.
Lemma pool_close_inv n s : no_reserved s -> no_reserved (pool_close n s).
Proof. intros H k. rewrite pool_close_load. destruct (p_load n (l_pool s)) as [[|c]|]; try apply H. destruct (bytes_eqb k n); [discriminate | apply H]. Qed.

Lemma lstep_inv s o : no_reserved s -> no_reserved (fst (lstep s o)).
Proof.
  intros H. destruct o as [n f|n|n|c|n f|n]; cbn [lstep]; try exact H.
  - pose proof (pool_new_inv n f s H). destruct (pool_new n f s) as [s' [[r g] w]]. assumption.
  - apply pool_close_inv, H.
  - unfold router_add. destruct (existsb _ _); [exact H|].
    pose proof (pool_new_inv n f s H). destruct (pool_new n f s) as [s' [[r g] w]]. destruct (r =? 0); assumption.
  - unfold router_remove. destruct (existsb _ _); [|exact H]. apply (pool_close_inv n s H).
Qed.

Definition run_ops (ops : list lop) : lstate := fold_left (fun s o => fst (lstep s o)) ops l_init.

Theorem reachable_no_reserved ops : no_reserved (run_ops ops).
Proof.
  apply (fold_left_inv_In _ no_reserved); [intros; apply lstep_inv; assumption | discriminate].
Qed.

Theorem get_usable_or_absent ops n :
  (p_get n (l_pool (run_ops ops)) = 1 /\ exists c, p_load n (l_pool (run_ops ops)) = Some (Ready c)) \/
  (p_get n (l_pool (run_ops ops)) = 0 /\ p_load n (l_pool (run_ops ops)) = None).
Proof.
  pose proof (reachable_no_reserved ops n) as H. unfold p_get.
  destruct (p_load n (l_pool (run_ops ops))) as [[|c]|]; [congruence | left; eauto | right; auto].
Qed.

(* while the client of name [n] is being constructed (re-entrant view), Get, on the pool that holds the reservation, says
   absent; the answer of an inner New is a constant of the model *)
Theorem reserved_invisible n f s : p_load n (l_pool s) = None ->
  let '(_, (_, g, w)) := pool_new n f s in g = 0 /\ w = 1.
Proof.
  intros L. unfold pool_new. rewrite L. unfold p_get. rewrite p_load_store, bytes_eqb_refl.
  destruct f; auto.
Qed.

Theorem new_iff_absent n f s :
  (fst (fst (snd (pool_new n f s))) = 0 <-> p_load n (l_pool s) = None /\ f = false).
Proof.
  unfold pool_new. destruct (p_load n (l_pool s)); simpl; [split; [discriminate | intros [? _]; discriminate]|].
  destruct f; simpl; split; auto; try discriminate. intros [_ ?]; discriminate.
Qed.

Theorem failed_new_no_change n s k : p_load n (l_pool s) = None ->
  p_load k (l_pool (fst (pool_new n true s))) = p_load k (l_pool s) /\
  l_targets (fst (pool_new n true s)) = l_targets s /\ l_closed (fst (pool_new n true s)) = l_closed s.
Proof. intros L. split; [rewrite pool_new_load, L; reflexivity|]. unfold pool_new. rewrite L. auto. Qed.

Definition synced (s : lstate) : Prop :=
  no_reserved s /\ forall n, In n (l_targets s) <-> exists c, p_load n (l_pool s) = Some (Ready c).

Definition router_op (o : lop) : Prop := match o with LAdd _ _ | LRemove _ => True | _ => False end.

Lemma absent_unloaded s n : synced s -> existsb (bytes_eqb n) (l_targets s) = false -> p_load n (l_pool s) = None.
Proof.
  intros [NR H] E. assert (NI : ~ In n (l_targets s)) by (intros I; apply mem_In in I; congruence).
  destruct (p_load n (l_pool s)) as [[|c]|] eqn:L; [destruct (NR n L) | | reflexivity]. destruct NI. apply H. eauto.
Qed.

Lemma synced_step s o : synced s -> router_op o -> synced (fst (lstep s o)).
Proof.
  intros S Ho. split; [apply lstep_inv, S|]. destruct o as [| | | |n f|n]; try destruct Ho; cbn [lstep].
  - (* Add of a name that is no target: the pool does not have it either (absent_unloaded); a failing constructor leaves both as
       they are, a working one puts n into both *)
    unfold router_add. destruct (existsb _ _) eqn:E; [apply S|]. pose proof (absent_unloaded s n S E) as L.
    pose proof (pool_new_load n f s) as PL. unfold pool_new in *. rewrite L in *. destruct S as [_ H].
    destruct f; cbn [fst snd l_pool l_targets Z.eqb] in *; intros k; rewrite PL; [apply H|]. cbn [In]. rewrite H.
    destruct (bytes_eqb_spec k n) as [->|]; [split; eauto | split; [intros [?|?]; [congruence | auto] | auto]].
  - (* Remove of a target: its connection is Ready (synced), so pool_close deletes it: n leaves both *)
    unfold router_remove. destruct (existsb _ _) eqn:E; [|apply S]. cbn [fst l_targets l_pool]. intros k.
    rewrite filter_In, negb_true_iff, pool_close_load, bytes_eqb_sym. destruct S as [NR H].
    assert (T : l_targets (pool_close n s) = l_targets s) by (unfold pool_close; destruct (p_load n (l_pool s)) as [[|c]|]; reflexivity).
    rewrite T. apply mem_In, H in E as [c E]. rewrite E.
    destruct (bytes_eqb_spec k n) as [->|]; [split; [intros [_ ?]|intros [? ?]]; discriminate | rewrite H; intuition].
Qed.

Lemma synced_reach ops : Forall router_op ops -> synced (run_ops ops).
Proof.
  intros F. apply (fold_left_inv _ synced router_op); [exact synced_step | | exact F].
  split; [discriminate|]. split; [intros [] | intros [c Hc]; discriminate].
Qed.

Theorem router_targets_are_pool ops : Forall router_op ops ->
  forall n, In n (l_targets (run_ops ops)) <-> exists c, p_load n (l_pool (run_ops ops)) = Some (Ready c).
Proof. intros F. apply synced_reach, F. Qed.

(* C16 main statement: over any history of Adds (failing or not) and Removes, Add n with a working constructor
   succeeds iff n is not currently present *)
Theorem addable_iff_absent ops n : Forall router_op ops ->
  (snd (router_add n false (run_ops ops)) = 1 <-> ~ In n (l_targets (run_ops ops))).
Proof.
  intros F. pose proof (synced_reach ops F) as S. unfold router_add.
  destruct (existsb (bytes_eqb n) (l_targets (run_ops ops))) eqn:E.
  - apply mem_In in E. cbn [snd]. split; [discriminate | contradiction].
  - unfold pool_new. rewrite (absent_unloaded _ n S E). cbn. split; [|reflexivity].
    intros _ I. apply mem_In in I. congruence.
Qed.

Theorem remove_effects s n c : In n (l_targets s) -> p_load n (l_pool s) = Some (Ready c) ->
  let s' := fst (router_remove n s) in
  ~ In n (l_targets s') /\ p_load n (l_pool s') = None /\ conn_stream c s' = 14 /\ snd (router_remove n s) = 1.
Proof.
  intros I L. unfold router_remove. rewrite (proj2 (mem_In n (l_targets s)) I). cbn [fst snd].
  unfold pool_close. rewrite L. cbn [l_pool l_targets l_closed]. repeat split.
  - intros X. apply filter_In in X as [_ X]. rewrite bytes_eqb_refl in X. discriminate.
  - rewrite p_load_delete, bytes_eqb_refl. reflexivity.
  - unfold conn_stream. cbn [l_closed existsb]. rewrite Z.eqb_refl. reflexivity.
Qed.

Example lifecycle_ex :
  run_lifecycle (VL [VL [VN 4; VS [97%N]; VN 1]; VL [VN 4; VS [97%N]; VN 0]; VL [VN 4; VS [97%N]; VN 0]; VL [VN 5; VS [97%N]]; VL [VN 4; VS [97%N]; VN 0]])
  = VL [VL [VN 0]; VL [VN 1]; VL [VN 0]; VL [VN 1]; VL [VN 1]].
Proof. vm_compute. reflexivity. Qed.
