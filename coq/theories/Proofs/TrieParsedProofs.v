(* C20: the trie only ever holds templates that the strict parser returned (Trie.Add takes a *Template): every such
   template meets the hypothesis of the trie's soundness theorem, which therefore holds for every trie that can exist. *)
From GB Require Import Model.Strict Model.Trie Proofs.ByteSearch Proofs.TemplateParseProofs Proofs.StrictProofs Proofs.TrieProofs.
Open Scope N_scope.

Lemma literal_noslash v : is_literal v = true -> noslash v = true.
Proof. intros H. unfold noslash. rewrite (free_existsb _ _ (class_free pc_char c_slash v eq_refl (pchars_chars _ _ H))). reflexivity. Qed.

Theorem st_parse_trie_ok s t : st_parse s = Some t -> trie_template_ok t = true.
Proof.
  intros P. apply st_parse_sound in P. destruct P as [LV [(E & _)|(LA & _)]]; unfold trie_template_ok; rewrite (literal_noslash _ LV), andb_true_r.
  - unfold no_nested. rewrite E. reflexivity.
  - refine (forallb_imp st_seg_ok _ _ _ LA). intros x H. apply andb_true_iff in H as [H _]. exact (good_seg_ok x H).
Qed.

Theorem trie_sound_parsed : forall texts ts p i t,
  Forall2 (fun s t => st_parse s = Some t) texts ts ->
  In i (find false (build ts) (c_slash :: p)) -> nth_error ts i = Some t -> template_matches t (c_slash :: p) = true.
Proof.
  intros texts ts p i t F. apply trie_find_sound. apply forallb_forall. intros x Hx.
  induction F as [|s y texts' ts' P F IH]; [destruct Hx|]. destruct Hx as [<-|Hx]; [exact (st_parse_trie_ok s y P) | exact (IH Hx)].
Qed.
