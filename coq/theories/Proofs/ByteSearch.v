(* Searching a byte string for a character: what index_of / last_index_of (Model/Template.v) compute on a string cut at
   the character, [a ++ c :: b], or free of it.  Every string is one or the other ([cut_last], [cut_first]), so callers
   reason about the two shapes and read a position only as [length a].  Re-exports Common and ListFacts. *)
From Coq Require Import Lia.
From GB Require Import Model.Template.
From GB Require Export Proofs.Common Proofs.ListFacts.
Open Scope N_scope.

Lemma class_excludes (p : N -> bool) c : p c = true -> forall d, p d = false -> (c =? d) = false.
Proof. intros Hc d Hd. destruct (N.eqb_spec c d) as [->|]; [congruence | reflexivity]. Qed.

Lemma join_cons sep a b r : join_with sep (a :: b :: r) = a ++ sep :: join_with sep (b :: r).
Proof. reflexivity. Qed.

(* TemplateRun.no_colon and TemplateParseProofs.nz, which the statements of Props/C20.v use, are [free c_colon] and [free 0]
   by conversion *)
Definition free (c : N) (s : bytes) : bool := forallb (fun x => negb (x =? c)) s.

Lemma class_free (p : N -> bool) d s : p d = false -> forallb p s = true -> free d s = true.
Proof. intros Hd. apply forallb_imp. intros c Hc. rewrite (class_excludes p c Hc d Hd). reflexivity. Qed.
Lemma free_cons c x s : free c (x :: s) = true -> (x =? c) = false /\ free c s = true.
Proof. unfold free. intros F. apply forallb_cons in F as [Fx F]. apply negb_true_iff in Fx. auto. Qed.
Lemma free_existsb c s : free c s = true -> existsb (N.eqb c) s = false.
Proof.
  induction s as [|x s IH]; intros F; [reflexivity|]. apply free_cons in F as [Fx F]. cbn [existsb]. rewrite N.eqb_sym, Fx. exact (IH F).
Qed.

Lemma cut_last c s : free c s = true \/ exists a b, s = a ++ c :: b /\ free c b = true.
Proof.
  induction s as [|x s [F|(a & b & -> & F)]]; [left; reflexivity | | right; exists (x :: a), b; auto].
  cbn [free forallb]. destruct (N.eqb_spec x c) as [->|]; [right; exists [], s; auto | left; exact F].
Qed.
Lemma cut_first c s : free c s = true \/ exists a b, s = a ++ c :: b /\ free c a = true.
Proof.
  induction s as [|x s IH]; [left; reflexivity|]. cbn [free forallb]. destruct (N.eqb_spec x c) as [->|N]; [right; exists [], s; auto|].
  destruct IH as [F|(a & b & -> & F)]; [left; exact F|]. right. exists (x :: a), b. cbn [free forallb]. apply N.eqb_neq in N. rewrite N. auto.
Qed.

Lemma last_index_free c : forall s i acc, free c s = true -> last_index_of c s i acc = acc.
Proof.
  induction s as [|x s IH]; intros i acc F; [reflexivity|]. apply free_cons in F as [Fx F]. cbn [last_index_of]. rewrite Fx. apply IH, F.
Qed.
Lemma last_index_cut c b : free c b = true -> forall a i acc, last_index_of c (a ++ c :: b) i acc = Some (i + length a)%nat.
Proof.
  intros F. induction a as [|x a IH]; intros i acc; cbn [app last_index_of length].
  - rewrite N.eqb_refl, (last_index_free c b _ _ F). f_equal. lia.
  - rewrite IH. f_equal. lia.
Qed.
Lemma index_free c : forall s i, free c s = true -> index_of c s i = None.
Proof.
  induction s as [|x s IH]; intros i F; [reflexivity|]. apply free_cons in F as [Fx F]. cbn [index_of]. rewrite Fx. apply IH, F.
Qed.
Lemma index_cut c b : forall a i, free c a = true -> index_of c (a ++ c :: b) i = Some (i + length a)%nat.
Proof.
  induction a as [|x a IH]; intros i F; cbn [app index_of length]; [rewrite N.eqb_refl; f_equal; lia|].
  apply free_cons in F as [Fx F]. rewrite Fx, (IH _ F). f_equal. lia.
Qed.

Lemma last_index_some c s j : last_index_of c s 0 None = Some j ->
  exists a b, s = a ++ c :: b /\ free c b = true /\ j = length a.
Proof.
  destruct (cut_last c s) as [F|(a & b & -> & F)]; [rewrite (last_index_free _ _ _ _ F); discriminate|].
  rewrite (last_index_cut _ _ F). intros [= <-]. exists a, b. auto.
Qed.
Lemma last_index_none c s : last_index_of c s 0 None = None -> free c s = true.
Proof. destruct (cut_last c s) as [F|(a & b & -> & F)]; [auto | rewrite (last_index_cut _ _ F); discriminate]. Qed.
Lemma index_some c s j : index_of c s 0 = Some j -> exists a b, s = a ++ c :: b /\ free c a = true /\ j = length a.
Proof.
  destruct (cut_first c s) as [F|(a & b & -> & F)]; [rewrite (index_free _ _ _ F); discriminate|].
  rewrite (index_cut _ _ _ _ F). intros [= <-]. exists a, b. auto.
Qed.

Lemma ends_with_iff s suf : ends_with s suf = true <-> exists a, s = a ++ suf.
Proof.
  unfold ends_with. rewrite andb_true_iff, bytes_eqb_eq, Nat.leb_le. split.
  - intros [E L]. exists (firstn (length s - length suf) s). pose proof (firstn_skipn (length s - length suf) s) as F. rewrite E in F. symmetry. exact F.
  - intros [a ->]. rewrite app_length. replace (length a + length suf - length suf)%nat with (length a) by lia.
    split; [apply skipn_exact | lia].
Qed.
