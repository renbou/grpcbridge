From Coq Require Import Lia ZifyBool.
From GB Require Import Model.MDFilter Model.Json Proofs.Common Proofs.ListFacts.
Open Scope Z_scope.

Definition all_digits (s : bytes) : Prop := Forall (fun c => is_digit c = true) s.

Lemma take_digits_all s : all_digits s -> take_digits s = (s, []).
Proof.
  induction s as [|c r IH]; intros H; [reflexivity|]. inversion H as [|? ? Hc Hr]; subst.
  cbn [take_digits]. rewrite Hc, (IH Hr). reflexivity.
Qed.

Lemma digits_Z_app a l c : digits_Z a (l ++ [c]) = digits_Z a l * 10 + (Z.of_N c - 48).
Proof. revert a; induction l as [|x l IH]; intros a; cbn [digits_Z app]; [reflexivity|apply IH]. Qed.

Lemma pos_digits_acc fuel : forall z acc, pos_digits fuel z acc = pos_digits fuel z [] ++ acc.
Proof.
  induction fuel as [|f IH]; intros z acc; cbn [pos_digits]; [reflexivity|].
  destruct (z <? 10); [reflexivity|]. rewrite (IH (z / 10) (_ :: acc)), (IH (z / 10) [_]). rewrite <- app_assoc. reflexivity.
Qed.

Lemma digit_char d : 0 <= d < 10 -> is_digit (Z.to_N (48 + d)) = true /\ Z.of_N (Z.to_N (48 + d)) - 48 = d.
Proof. intros H. unfold is_digit. split; lia. Qed.

(* the digits of z, most significant first, with no leading zero: fuel digits are enough below 10^fuel *)
Lemma pos_digits_spec fuel : forall z, 0 <= z < 10 ^ Z.of_nat fuel -> (0 < fuel)%nat ->
  all_digits (pos_digits fuel z []) /\ digits_Z 0 (pos_digits fuel z []) = z /\
  (exists c r, pos_digits fuel z [] = c :: r /\ (c = 48%N -> z = 0 /\ r = [])).
Proof.
  induction fuel as [|f IH]; intros z Hz Hf; [lia|].
  cbn [pos_digits]. destruct (Z.ltb_spec z 10) as [Hlt|Hge].
  - destruct (digit_char z ltac:(lia)) as [D1 D2]. repeat split.
    + constructor; [exact D1|constructor].
    + cbn [digits_Z]. rewrite D2. reflexivity.
    + exists (Z.to_N (48 + z)), []. split; [reflexivity|]. intros E. split; [lia|reflexivity].
  - rewrite Nat2Z.inj_succ, Z.pow_succ_r in Hz by lia.
    destruct (IH (z / 10)) as (A & B & c & r & E & Hc);
      [split; [apply Z.div_pos; lia|apply Z.div_lt_upper_bound; lia] | destruct f; [cbn in Hz; lia|lia] |].
    rewrite pos_digits_acc. destruct (digit_char (z mod 10) (Z.mod_pos_bound z 10 eq_refl)) as [D1 D2].
    repeat split.
    + apply Forall_app. split; [exact A|]. constructor; [exact D1|constructor].
    + rewrite digits_Z_app, B, D2. rewrite (Z.div_mod z 10) at 3 by lia. ring.
    + rewrite E. eexists c, _. split; [reflexivity|]. intros e. destruct (Hc e) as [Z0 _]. exfalso. clear - Z0 Hge.
      assert (1 <= z / 10) by (apply Z.div_le_lower_bound; lia). lia.
Qed.

Lemma parse_plain (neg : bool) ds : all_digits ds -> int_part_ok ds = true ->
  parse_number ((if neg then [45%N] else []) ++ ds) = Some {| nl_neg := neg; nl_mant := digits_Z 0 ds; nl_exp := 0; nl_explen := 0 |}.
Proof.
  intros A I. unfold parse_number.
  assert (S : split_minus ((if neg then [45%N] else []) ++ ds) = (neg, ds)).
  { destruct neg; [reflexivity|]. destruct ds as [|c r]; [reflexivity|]. cbn [app split_minus].
    inversion A as [|? ? Hc _]; subst. unfold is_digit in Hc. destruct (N.eqb_spec c 45); [lia|reflexivity]. }
  rewrite S, (take_digits_all _ A), I. cbn [negb split_frac split_exp]. rewrite app_nil_r. reflexivity.
Qed.

Lemma dec_of_Z_abs z : dec_of_Z z = (if z <? 0 then [45%N] else []) ++ pos_digits 80 (Z.abs z) [].
Proof. unfold dec_of_Z. destruct (Z.ltb_spec z 0); cbn [app]; [rewrite Z.abs_neq by lia|rewrite Z.abs_eq by lia]; reflexivity. Qed.

Lemma json_integer_dec z : Z.abs z < 10 ^ Z.of_nat 80 -> json_integer (dec_of_Z z) = Some z.
Proof.
  intros Hz. destruct (pos_digits_spec 80 (Z.abs z) (conj (Z.abs_nonneg z) Hz) (Nat.lt_0_succ _)) as (A & B & c & r & E & Hc).
  clear Hz. unfold json_integer. rewrite dec_of_Z_abs, (parse_plain _ _ A).
  - unfold lit_integer. cbn [nl_explen nl_exp nl_mant nl_neg Nat.ltb Nat.leb Z.ltb Z.compare]. rewrite B. f_equal.
    destruct (Z.ltb_spec z 0); lia.
  - rewrite E. unfold int_part_ok. destruct (N.eqb_spec c 48) as [e|]; [|reflexivity]. rewrite (proj2 (Hc e)). reflexivity.
Qed.

Definition signed_mant (n : numlit) : Z := if nl_neg n then - nl_mant n else nl_mant n.
(* the rational mant * 10^exp equals the integer z *)
Definition denotes (n : numlit) (z : Z) : Prop :=
  signed_mant n * 10 ^ Z.max (nl_exp n) 0 = z * 10 ^ Z.max (- nl_exp n) 0.

Lemma denotes_unique n z1 z2 : denotes n z1 -> denotes n z2 -> z1 = z2.
Proof. unfold denotes. intros A B. assert (0 < 10 ^ Z.max (- nl_exp n) 0) by (apply Z.pow_pos_nonneg; lia). nia. Qed.

Lemma lit_integer_spec n z : lit_integer n = Some z <-> denotes n z.
Proof.
  unfold lit_integer, denotes, signed_mant. destruct (Z.ltb_spec (nl_exp n) 0) as [Hn|Hp].
  - rewrite (Z.max_r _ 0), (Z.max_l (- nl_exp n) 0), Z.pow_0_r by lia.
    set (d := 10 ^ (- nl_exp n)). assert (Hd : 0 < d) by (apply Z.pow_pos_nonneg; lia).
    pose proof (Z.div_mod (nl_mant n) d ltac:(lia)) as DM.
    destruct (Z.eqb_spec (nl_mant n mod d) 0) as [Hm|Hm].
    + rewrite Hm in DM. split; [intros E; injection E as <-|intros E; f_equal]; destruct (nl_neg n); nia.
    + split; [discriminate|]. intros E. destruct Hm.
      replace (nl_mant n) with ((if nl_neg n then - z else z) * d) by (destruct (nl_neg n); lia). apply Z.mod_mul. lia.
  - rewrite (Z.max_l _ 0), (Z.max_r (- nl_exp n) 0), Z.pow_0_r by lia.
    split; [intros E; injection E as <-|intros E; f_equal]; destruct (nl_neg n); lia.
Qed.

(* the mantissa of a parsed literal is a digit string: never negative (the sign is kept apart) *)
Lemma digits_Z_nonneg ds : forall a, 0 <= a -> all_digits ds -> 0 <= digits_Z a ds.
Proof.
  induction ds as [|c r IH]; intros a Ha A; cbn [digits_Z]; [exact Ha|]. inversion A as [|? ? Hc Hr]; subst.
  apply IH; [|exact Hr]. unfold is_digit in Hc. lia.
Qed.
Lemma take_digits_digits s : all_digits (fst (take_digits s)).
Proof.
  induction s as [|c r IH]; cbn [take_digits]; [constructor|]. destruct (is_digit c) eqn:D; [|constructor].
  destruct (take_digits r) as [dd rest]. cbn [fst] in *. constructor; assumption.
Qed.
Lemma parse_number_mant_nonneg s n : parse_number s = Some n -> 0 <= nl_mant n.
Proof.
  unfold parse_number. destruct (split_minus s) as [neg s1]. pose proof (take_digits_digits s1) as D1.
  destruct (take_digits s1) as [ip s2]. destruct (negb (int_part_ok ip)); [discriminate|].
  assert (D2 : all_digits (fst (fst (split_frac s2)))).
  { unfold split_frac. destruct s2 as [|c r]; [constructor|]. destruct (c =? 46)%N; [|constructor].
    pose proof (take_digits_digits r) as D. destruct (take_digits r) as [f r']. exact D. }
  destruct (split_frac s2) as [[fp s3] fok]. destruct (negb fok); [discriminate|]. destruct (split_exp s3) as [[e elen]|]; [|discriminate].
  intros E. injection E as <-. cbn [nl_mant]. apply digits_Z_nonneg; [lia|]. apply Forall_app. split; assumption.
Qed.

(* jsonParseInteger accepts exactly the number texts with a short exponent that denote an integer, as that integer *)
Lemma json_integer_spec s z :
  json_integer s = Some z <-> exists n, parse_number s = Some n /\ (nl_explen n <= 4)%nat /\ denotes n z.
Proof.
  unfold json_integer. split.
  - destruct (parse_number s) as [n|]; [|discriminate]. destruct (Nat.ltb_spec 4 (nl_explen n)); [discriminate|].
    intros L. exists n. split; [reflexivity|]. split; [lia|]. exact (proj1 (lit_integer_spec n z) L).
  - intros (n & P & L & D). rewrite P. destruct (Nat.ltb_spec 4 (nl_explen n)); [lia|].
    exact (proj2 (lit_integer_spec n z) D).
Qed.

Definition is_int_kind (k : kind) : bool := match k with KInt32 | KInt64 | KUint32 | KUint64 => true | _ => false end.
Definition num_text (j : jv) : option bytes := match j with JNum s | JStr s => Some s | _ => None end.

(* the four integer kinds decode alike, numbers and strings alike: a text goes through jsonParseInteger and the range check
   (and null is 0: unmarshal_int) *)
Definition int_field (k : kind) (s : bytes) : res fv :=
  match json_integer s with Some z => if in_range k z then Ok (FInt z) else Err | None => Err end.

Lemma unmarshal_int d k j : is_int_kind k = true ->
  unmarshal_scalar d k j = match j with JNull => Ok (FInt 0) | JNum s | JStr s => int_field k s | _ => Err end.
Proof. destruct k; try discriminate; intros _; destruct j; reflexivity. Qed.

Lemma unmarshal_int_text d k s r : is_int_kind k = true -> int_field k s = r ->
  unmarshal_scalar d k (JNum s) = r /\ unmarshal_scalar d k (JStr s) = r.
Proof. intros K <-. rewrite !(unmarshal_int d k _ K). split; reflexivity. Qed.

Lemma int_field_spec k s v : int_field k s = Ok v <->
  exists n z, parse_number s = Some n /\ (nl_explen n <= 4)%nat /\ denotes n z /\ in_range k z = true /\ v = FInt z.
Proof.
  unfold int_field. split.
  - destruct (json_integer s) as [z|] eqn:J; [|discriminate]. destruct (in_range k z) eqn:R; [|discriminate].
    intros E. injection E as <-. apply json_integer_spec in J as (n & P & L & D). exists n, z. auto.
  - intros (n & z & P & L & D & R & ->). rewrite (proj2 (json_integer_spec s z)), R; [reflexivity|exists n; auto].
Qed.

Lemma int_field_err k s n : parse_number s = Some n -> (forall z, denotes n z -> in_range k z = false) -> int_field k s = Err.
Proof.
  intros P H. destruct (int_field k s) as [v|] eqn:E; [|reflexivity].
  apply int_field_spec in E as (n' & z & P' & _ & D & R & _). rewrite P in P'. injection P' as <-. rewrite (H z D) in R. discriminate R.
Qed.

(* no coercion, truncation or wrap-around: whatever an integer field accepts is null (the default) or a text that
   denotes EXACTLY the stored integer, which is in the field's range *)
Lemma int_accept_exact d k j v : is_int_kind k = true -> unmarshal_scalar d k j = Ok v ->
  (j = JNull /\ v = FInt 0) \/
  exists s n z, num_text j = Some s /\ parse_number s = Some n /\ denotes n z /\ in_range k z = true /\ v = FInt z.
Proof.
  intros K. rewrite (unmarshal_int d k j K). destruct j; try discriminate.
  - intros [= <-]. auto.
  - intros (n & z & P & _ & D)%int_field_spec. right. exists lit, n, z. auto.
  - intros (n & z & P & _ & D)%int_field_spec. right. exists s, n, z. auto.
Qed.

(* values of the wrong JSON type are rejected *)
Lemma accept_type_ok d k j v : unmarshal_scalar d k j = Ok v -> type_ok k j = true.
Proof. destruct k, j; cbn [unmarshal_scalar type_ok]; intros H; try discriminate; reflexivity. Qed.

Lemma int_reject_out_of_range d k s n z : is_int_kind k = true -> parse_number s = Some n -> denotes n z -> in_range k z = false ->
  unmarshal_scalar d k (JNum s) = Err /\ unmarshal_scalar d k (JStr s) = Err.
Proof.
  intros K P D R. apply (unmarshal_int_text d k s Err K), (int_field_err k s n P).
  intros z' D'. rewrite (denotes_unique n z' z D' D). exact R.
Qed.

Lemma int_reject_fractional d k s n : is_int_kind k = true -> parse_number s = Some n -> (forall z, ~ denotes n z) ->
  unmarshal_scalar d k (JNum s) = Err /\ unmarshal_scalar d k (JStr s) = Err.
Proof.
  intros K P D. apply (unmarshal_int_text d k s Err K), (int_field_err k s n P). intros z D'. destruct (D z D').
Qed.

(* exponent forms that denote integers are accepted too (1e3, 2.5e+2, 1.0), as the proto3 JSON mapping requires *)
Lemma int_accept_complete d k s n z : is_int_kind k = true -> parse_number s = Some n -> (nl_explen n <= 4)%nat ->
  denotes n z -> in_range k z = true ->
  unmarshal_scalar d k (JNum s) = Ok (FInt z) /\ unmarshal_scalar d k (JStr s) = Ok (FInt z).
Proof.
  intros K P L D R. apply (unmarshal_int_text d k s _ K), int_field_spec. exists n, z. auto.
Qed.

(* 80 digits are more than any field needs; 10^80 itself is never computed *)
Lemma word_small z : Z.abs z < 2 ^ 64 -> Z.abs z < 10 ^ Z.of_nat 80.
Proof.
  intros H. apply Z.lt_le_trans with (10 ^ 20); [|apply Z.pow_le_mono_r; [reflexivity|apply Z.leb_le; reflexivity]].
  apply Z.lt_trans with (2 ^ 64); [exact H|reflexivity].
Qed.
Lemma in_range_small k z : is_int_kind k = true -> in_range k z = true -> Z.abs z < 10 ^ Z.of_nat 80.
Proof. intros K R. apply word_small. change (2 ^ 64) with 18446744073709551616. destruct k; try discriminate; unfold in_range in R; lia. Qed.

Lemma int_roundtrip d k z : is_int_kind k = true -> in_range k z = true ->
  unmarshal_scalar d k (JNum (dec_of_Z z)) = Ok (FInt z) /\ unmarshal_scalar d k (JStr (dec_of_Z z)) = Ok (FInt z).
Proof.
  intros K R. apply (unmarshal_int_text d k _ _ K). unfold int_field.
  rewrite (json_integer_dec z (in_range_small k z K R)), R. reflexivity.
Qed.

Open Scope N_scope.

Lemma div_mod_horner B h l : l < B -> (h * B + l) / B = h /\ (h * B + l) mod B = l.
Proof.
  intros H. assert (B <> 0) by (intros ->; exact (N.nlt_0_r _ H)). split.
  - rewrite N.div_add_l, N.div_small, N.add_0_r by assumption. reflexivity.
  - rewrite N.add_comm, N.mod_add, N.mod_small by assumption. reflexivity.
Qed.

Lemma digits3 B a b c : b < B -> c < B ->
  let v := a * (B * B) + b * B + c in v / (B * B) = a /\ (v / B) mod B = b /\ v mod B = c.
Proof.
  intros Hb Hc v. assert (B <> 0) by (intros ->; exact (N.nlt_0_r _ Hb)).
  assert (E : v = (a * B + b) * B + c) by (unfold v; ring).
  destruct (div_mod_horner B (a * B + b) c Hc) as [D M]. destruct (div_mod_horner B a b Hb) as [D' M'].
  rewrite <- N.div_div by assumption. rewrite E, D, M, D', M'. auto.
Qed.

Lemma digits4 B v : B <> 0 ->
  v / (B * B * B) * (B * B * B) + (v / (B * B)) mod B * (B * B) + (v / B) mod B * B + v mod B = v.
Proof.
  intros HB. rewrite <- (N.div_div v (B * B) B), <- (N.div_div v B B) by (try apply N.neq_mul_0; auto).
  pose proof (N.div_mod v B HB) as E1. pose proof (N.div_mod (v / B) B HB) as E2. pose proof (N.div_mod (v / B / B) B HB) as E3.
  revert E1 E2 E3. generalize (v mod B) ((v / B) mod B) ((v / B / B) mod B) (v / B / B / B).
  generalize (v / B / B). generalize (v / B). intros q1 q2 r0 r1 r2 q3 -> -> ->. ring.
Qed.

(* one table check of the alphabet; CR, LF and '=' are outside it, having no value *)
Lemma b64_val_char n : n < 64 -> b64_val (b64_char n) = Some n.
Proof.
  intros H. pose proof (forallb_range N.of_nat N.to_nat (fun n => match b64_val (b64_char n) with Some m => m =? n | None => false end)
                         64 ltac:(vm_compute; reflexivity) n (N2Nat.id n) ltac:(lia)) as E. cbv beta in E. destruct (b64_val (b64_char n)); [|discriminate]. f_equal. apply N.eqb_eq. exact E.
Qed.
Lemma b64_char_valued n c : n < 64 -> b64_val c = None -> (b64_char n =? c) = false.
Proof. intros H V. destruct (N.eqb_spec (b64_char n) c) as [<-|_]; [rewrite (b64_val_char n H) in V; discriminate V|reflexivity]. Qed.
Lemma b64_char_not_crlf n : n < 64 -> is_crlf (b64_char n) = false.
Proof. intros H. unfold is_crlf. rewrite !(b64_char_valued n _ H) by reflexivity. reflexivity. Qed.
Lemma b64_char_not_pad n : n < 64 -> (b64_char n =? 61) = false.
Proof. intros H. exact (b64_char_valued n 61 H eq_refl). Qed.

Definition all_bytes (s : bytes) : Prop := Forall (fun c => c < 256) s.

Lemma quantum_sextets v :
  quantum (v / 262144) ((v / 4096) mod 64) ((v / 64) mod 64) (v mod 64) = [v / 65536; (v / 256) mod 256; v mod 256].
Proof.
  assert (E : v / 262144 * 262144 + (v / 4096) mod 64 * 4096 + (v / 64) mod 64 * 64 + v mod 64 = v)
    by exact (digits4 64 v ltac:(discriminate)).
  unfold quantum. rewrite E. reflexivity.
Qed.

Lemma quantum3 a b c : b < 256 -> c < 256 ->
  let v := a * 65536 + b * 256 + c in
  quantum (v / 262144) ((v / 4096) mod 64) ((v / 64) mod 64) (v mod 64) = [a; b; c].
Proof.
  intros Hb Hc v. rewrite quantum_sextets. destruct (digits3 256 a b c Hb Hc) as (E1 & E2 & E3).
  change (v / 65536 = a) in E1. change ((v / 256) mod 256 = b) in E2. change (v mod 256 = c) in E3. rewrite E1, E2, E3. reflexivity.
Qed.

Lemma sextet_bounds v : v < 16777216 -> v / 262144 < 64 /\ (v / 4096) mod 64 < 64 /\ (v / 64) mod 64 < 64 /\ v mod 64 < 64.
Proof.
  intros H. repeat split; try (apply N.mod_lt; discriminate). apply N.div_lt_upper_bound; [discriminate|exact H].
Qed.

Lemma b64_go_quad p f a b c d r x y z w : b64_val a = Some x -> b64_val b = Some y -> b64_val c = Some z -> b64_val d = Some w ->
  b64_go p (S f) (a :: b :: c :: d :: r) = match b64_go p f r with Some t => Some (quantum x y z w ++ t) | None => None end.
Proof. intros Ea Eb Ec Ed. cbn [b64_go]. rewrite Ea, Eb, Ec, Ed. reflexivity. Qed.

Definition clean (s : bytes) : Prop := Forall (fun c => is_crlf c = false) s.

Lemma b64_roundtrip_go s : all_bytes s ->
  clean (b64_encode s) /\ forall f, (length (b64_encode s) <= f)%nat -> b64_go true f (b64_encode s) = Some s.
Proof.
  induction s as [|a|a b|a b c r IH] using list_ind3; intros H.
  - split; [constructor|]. intros [|f] _; reflexivity.
  - apply Forall_cons_iff in H as [Ha _]. cbn [b64_encode length].
    destruct (sextet_bounds (a * 65536) ltac:(lia)) as (B1 & B2 & _).
    split; [repeat constructor; apply b64_char_not_crlf; assumption|]. intros [|f] L; [inversion L|]. cbn [b64_go].
    rewrite (b64_val_char _ B1), (b64_val_char _ B2). cbn [b64_val N.leb N.compare Pos.compare Pos.compare_cont andb N.eqb Pos.eqb].
    (* "xy==" decodes as the group of [a; 0; 0], whose two low sextets are 0 *)
    assert (Z0 : (a * 65536) mod 64 = 0) by (change 65536 with (1024 * 64); rewrite N.mul_assoc; apply N.mod_mul; discriminate).
    assert (Z1 : (a * 65536 / 64) mod 64 = 0)
      by (change 65536 with (16 * 64 * 64); rewrite !N.mul_assoc, N.div_mul by discriminate; apply N.mod_mul; discriminate).
    pose proof (quantum3 a 0 0 eq_refl eq_refl) as Q. cbv zeta in Q. rewrite !N.add_0_r, Z1, Z0 in Q. rewrite Q. reflexivity.
  - apply Forall_cons_iff in H as [Ha H]. apply Forall_cons_iff in H as [Hb _]. cbn [b64_encode length].
    destruct (sextet_bounds (a * 65536 + b * 256) ltac:(lia)) as (B1 & B2 & B3 & _).
    split; [repeat constructor; apply b64_char_not_crlf; assumption|]. intros [|f] L; [inversion L|]. cbn [b64_go].
    rewrite (b64_val_char _ B1), (b64_val_char _ B2), (b64_val_char _ B3). cbn [b64_val N.leb N.compare Pos.compare Pos.compare_cont andb N.eqb Pos.eqb].
    assert (Z0 : (a * 65536 + b * 256) mod 64 = 0)
      by (change 65536 with (1024 * 64); change 256 with (4 * 64); rewrite !N.mul_assoc, <- N.mul_add_distr_r; apply N.mod_mul; discriminate).
    pose proof (quantum3 a b 0 Hb eq_refl) as Q. cbv zeta in Q. rewrite !N.add_0_r, Z0 in Q. rewrite Q. reflexivity.
  - apply Forall_cons_iff in H as [Ha H]. apply Forall_cons_iff in H as [Hb H]. apply Forall_cons_iff in H as [Hc H].
    destruct (IH H) as [C D]. cbn [b64_encode length].
    destruct (sextet_bounds (a * 65536 + b * 256 + c) ltac:(lia)) as (B1 & B2 & B3 & B4).
    split; [repeat (constructor; [apply b64_char_not_crlf; assumption|]); exact C|]. intros [|f] L; [inversion L|].
    rewrite (b64_go_quad _ _ _ _ _ _ _ _ _ _ _ (b64_val_char _ B1) (b64_val_char _ B2) (b64_val_char _ B3) (b64_val_char _ B4)).
    rewrite D by (apply le_S_n in L; apply Nat.le_trans with (2 := L); repeat constructor).
    pose proof (quantum3 a b c Hb Hc) as Q. cbv zeta in Q. rewrite Q. reflexivity.
Qed.

Lemma b64_roundtrip s : all_bytes s -> b64_std (b64_encode s) = Some s.
Proof.
  intros H. destruct (b64_roundtrip_go s H) as [C D]. unfold b64_std, strip_crlf. rewrite filter_all_id; [exact (D _ (le_n _))|].
  refine (Forall_impl _ _ C). intros c ->. reflexivity.
Qed.
Close Scope N_scope.

Lemma lookup_num_In z names n : lookup_num z names = Some n -> In (n, z) names.
Proof.
  induction names as [|[k v] r IH]; cbn [lookup_num]; [discriminate|].
  destruct (Z.eqb_spec z v) as [->|_]; [intros [= ->]; left; reflexivity | right; auto].
Qed.

(* [lookup_name] is [aget] of Common.v, by conversion *)
Lemma lookup_num_name z names n : NoDup (map fst names) -> lookup_num z names = Some n -> lookup_name n names = Some z.
Proof. intros ND H. exact (aget_NoDup n z names ND (lookup_num_In z names n H)). Qed.

Lemma enum_number_roundtrip d names z : -2147483648 <= z <= 2147483647 ->
  unmarshal_scalar d (KEnum names) (JNum (dec_of_Z z)) = Ok (FEnum z).
Proof.
  intros R. assert (J : json_integer (dec_of_Z z) = Some z).
  { apply json_integer_dec, word_small. change (2 ^ 64) with 18446744073709551616. lia. }
  apply json_integer_spec in J as (n & P & _ & D). cbn [unmarshal_scalar]. rewrite P, (proj2 (lit_integer_spec n z) D).
  replace ((-2147483648 <=? z) && (z <=? 2147483647)) with true by lia. reflexivity.
Qed.

Definition wf_value (k : kind) (v : fv) : Prop :=
  match k, v with
  | KBool, FBool _ => True
  | (KInt32 | KInt64 | KUint32 | KUint64), FInt z => in_range k z = true
  | (KFloat | KDouble), FSpecial s => 0 <= s <= 2          (* NaN, +Infinity, -Infinity; finite floats: strconv, see DESIGN *)
  | KString, FStr _ => True
  | KBytes, FBytes s => all_bytes s
  | KEnum names, FEnum z => NoDup (map fst names) /\ -2147483648 <= z <= 2147483647
  | _, _ => False
  end.

Lemma marshal_roundtrip d k v : wf_value k v -> exists j, marshal_scalar k v = Some j /\ unmarshal_scalar d k j = Ok v.
Proof.
  intros W. destruct k, v; cbn [wf_value] in W; try contradiction; cbn [marshal_scalar].
  6-7: assert (k = 0 \/ k = 1 \/ k = 2) as [-> | [-> | ->]] by lia; eexists; (split; [reflexivity|vm_compute; reflexivity]).
  2-5: eexists; (split; [reflexivity | refine (proj1 (int_roundtrip d _ z _ W)); reflexivity]).
  - eexists; split; reflexivity.
  - eexists; split; reflexivity.
  - eexists; split; [reflexivity|]. cbn [unmarshal_scalar]. rewrite (b64_roundtrip _ W). reflexivity.
  - destruct W as [ND R]. destruct (lookup_num n names) as [nm|] eqn:L; eexists; (split; [reflexivity|]).
    + cbn [unmarshal_scalar]. rewrite (lookup_num_name _ _ _ ND L). reflexivity.
    + apply enum_number_roundtrip; exact R.
Qed.

(* the canonical encoder differs from the code's only in writing 64-bit integers as strings *)
Lemma scalar_roundtrip d k v : wf_value k v ->
  (exists j, marshal_scalar k v = Some j /\ unmarshal_scalar d k j = Ok v) /\
  (exists j, pj_encode k v = Some j /\ unmarshal_scalar d k j = Ok v).
Proof.
  intros W. split; [exact (marshal_roundtrip d k v W)|].
  destruct k, v; try exact (marshal_roundtrip d _ _ W); eexists; (split; [reflexivity | refine (proj2 (int_roundtrip d _ z _ W)); reflexivity]).
Qed.

Lemma wf_not_skip k v : wf_value k v -> not_skip v = true.
Proof. destruct k, v; cbn; try contradiction; reflexivity. Qed.

Lemma collect_roundtrip {A B} (enc : A -> option B) (dec : B -> res A) l :
  Forall (fun a => exists b, enc a = Some b /\ dec b = Ok a) l ->
  exists bs, collect_opt (map enc l) = Some bs /\ collect (map dec bs) = Ok l.
Proof.
  induction 1 as [|a l (b & E & D) _ (bs & E1 & E2)]; [exists []; split; reflexivity|].
  exists (b :: bs). cbn [map collect_opt collect]. rewrite E, E1, D, E2. split; reflexivity.
Qed.

Lemma list_roundtrip d k l : Forall (wf_value k) l ->
  exists j, marshal_list k l = Some j /\ unmarshal_list d k j = Ok l.
Proof.
  intros W. unfold marshal_list.
  destruct (collect_roundtrip (marshal_scalar k) (unmarshal_scalar d k) l) as (js & E1 & E2).
  { exact (Forall_impl _ (marshal_roundtrip d k) W). }
  rewrite E1. eexists. split; [reflexivity|]. cbn [unmarshal_list]. rewrite E2. f_equal.
  exact (filter_all_id _ _ (Forall_impl _ (wf_not_skip k) W)).
Qed.

Definition wf_key (kk : kind) (v : fv) : Prop :=
  match kk, v with
  | KBool, FBool _ => True
  | (KInt32 | KInt64 | KUint32 | KUint64), FInt z => in_range kk z = true
  | KString, FStr _ => True
  | _, _ => False
  end.

Lemma key_roundtrip kk v : wf_key kk v -> exists t, key_text kk v = Some t /\ unmarshal_key kk t = Ok v.
Proof.
  destruct kk, v; cbn [wf_key]; try contradiction; intros W.
  2-5: eexists; (split; [reflexivity | refine (proj2 (int_roundtrip false _ z _ W)); reflexivity]).
  - destruct b; eexists; (split; [reflexivity|vm_compute; reflexivity]).
  - eexists; split; reflexivity.
Qed.

Lemma map_roundtrip d kk vk l : Forall (fun e => wf_key kk (fst e) /\ wf_value vk (snd e)) l ->
  exists j, marshal_map kk vk l = Some j /\ unmarshal_map d kk vk j = Ok l.
Proof.
  intros W. unfold marshal_map.
  set (enc := fun e : fv * fv => match key_text kk (fst e), marshal_scalar vk (snd e) with Some a, Some b => Some (a, b) | _, _ => None end).
  set (dec := fun e : bytes * jv => match unmarshal_key kk (fst e), unmarshal_scalar d vk (snd e) with Ok a, Ok b => Ok (a, b) | _, _ => Err end).
  destruct (collect_roundtrip enc dec l) as (es & E1 & E2).
  { refine (Forall_impl _ _ W). intros [kv v] [Wk Wv]. destruct (marshal_roundtrip d vk v Wv) as (j & M & U).
    destruct (key_roundtrip kk kv Wk) as (t & KT & KU). exists (t, j). unfold enc, dec. cbn [fst snd]. rewrite KT, M, KU, U. split; reflexivity. }
  rewrite E1. eexists. split; [reflexivity|]. cbn [unmarshal_map]. fold dec. rewrite E2. f_equal.
  apply filter_all_id. refine (Forall_impl _ _ W). intros e [_ Wv]. exact (wf_not_skip vk _ Wv).
Qed.

(* unknown enum names: rejected, or skipped when unknowns are discarded *)
Lemma unknown_enum_name names s : lookup_name s names = None ->
  unmarshal_scalar false (KEnum names) (JStr s) = Err /\ unmarshal_scalar true (KEnum names) (JStr s) = Ok FSkip.
Proof. intros H. cbn [unmarshal_scalar]. rewrite H. split; reflexivity. Qed.

Lemma skip_only_unknown_enum d k j : unmarshal_scalar d k j = Ok FSkip ->
  d = true /\ exists names s, k = KEnum names /\ j = JStr s /\ lookup_name s names = None.
Proof.
  (* every branch but the enum-name one ends in another constructor *)
  destruct k, j; try discriminate; cbn [unmarshal_scalar].
  all: try (destruct (json_integer _) as [z|]; [destruct (in_range _ z)|]; discriminate).
  all: try (destruct (parse_number _) as [n|]; [|discriminate]).
  all: try (unfold float_of_lit; destruct (mag_ge _ _); discriminate).
  all: try (destruct (float_special _); [discriminate|]; destruct (go_float _) as [[? g]|]; [destruct (gf_ge g _)|]; discriminate).
  - destruct (b64_std s); discriminate.
  - destruct (lit_integer n) as [z|]; [destruct (_ && _)|]; discriminate.
  - destruct (lookup_name s names) eqn:L; [discriminate|]. destruct d; [|discriminate]. intros _. split; [reflexivity|]. exists names, s. auto.
Qed.

Lemma list_never_stores_skip d k j l : unmarshal_list d k j = Ok l -> ~ In FSkip l.
Proof.
  destruct j; cbn [unmarshal_list]; intros H; try discriminate.
  - injection H as <-. intros [].
  - destruct (collect _) as [x|]; [|discriminate]. injection H as <-. intros [_ I]%filter_In. discriminate.
Qed.

(* floats: a finite number text (JNum) never becomes an infinity *)
Lemma float_number_finite d k s v : (k = KFloat \/ k = KDouble) -> unmarshal_scalar d k (JNum s) = Ok v ->
  v = FFinite /\ exists n, parse_number s = Some n /\ mag_ge n (float_bound k) = false.
Proof.
  intros [->| ->]; cbn [unmarshal_scalar]; destruct (parse_number s) as [n|]; try discriminate; unfold float_of_lit;
    destruct (mag_ge n _) eqn:M; try discriminate; intros E; injection E as <-; (split; [reflexivity|exists n; split; [reflexivity|exact M]]).
Qed.

Definition b (l : list Z) : bytes := map Z.to_N l.
(* the code before the repairs *)
Lemma old_int_refuted :
  unmarshal_int_old KInt32 (b [49;46;53]) = 0 /\                                   (* 1.5 -> 0 *)
  unmarshal_int_old KInt32 (b [49;101;51]) = 0 /\                                  (* 1e3 -> 0 *)
  unmarshal_int_old KInt32 (b [49;48;57;57;53;49;49;54;50;55;55;55;54]) = 0 /\     (* 2^40 -> 0 *)
  unmarshal_int_old KUint32 (b [45;49]) = 4294967295 /\                            (* -1 -> 2^32-1 *)
  unmarshal_int_old KInt32 (b [50;49;52;55;52;56;51;54;52;56]) = -2147483648.      (* 2^31 -> -2^31 *)
Proof. vm_compute. repeat split; reflexivity. Qed.

(* non-vacuity: concrete texts *)
Example ex_exponent_int : unmarshal_scalar false KInt32 (JNum (b [50;46;53;101;43;50])) = Ok (FInt 250).   (* 2.5e+2 *)
Proof. vm_compute. reflexivity. Qed.
Example ex_fraction_rejected : unmarshal_scalar false KInt32 (JNum (b [49;46;53])) = Err.                  (* 1.5 *)
Proof. vm_compute. reflexivity. Qed.
Example ex_out_of_range : unmarshal_scalar false KUint32 (JNum (b [45;49])) = Err.                          (* -1 *)
Proof. vm_compute. reflexivity. Qed.
Example ex_u64_max : unmarshal_scalar false KUint64 (JStr (dec_of_Z 18446744073709551615)) = Ok (FInt 18446744073709551615).
Proof. vm_compute. reflexivity. Qed.
