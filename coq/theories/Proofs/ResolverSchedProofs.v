(* C15: the schedules that are forced on the real resolver (Model/ResolverConcRun.v) are runs of the LTS about which the
   theorems of ResolverConcProofs.v speak: every action is one or two LTS steps. *)
From GB Require Import Model.ResolverConcRun Proofs.ResolverConcProofs.

Lemma reach_trans ra tm s0 s1 s2 : Reach ra tm s0 s1 -> Reach ra tm s1 s2 -> Reach ra tm s0 s2.
Proof. intros R1 R2. induction R2 as [|s s' _ IH ST]; [exact R1 | exact (RS ra tm s0 s s' IH ST)]. Qed.

Lemma reach1 ra tm s s' : step ra tm s s' -> Reach ra tm s s'.
Proof. intros H. exact (RS ra tm s s s' (R0 ra tm s) H). Qed.

Lemma hd_error_in {A} (l : list A) x : hd_error l = Some x -> In x l.
Proof. destruct l; [discriminate|]. intros H. injection H as <-. left. reflexivity. Qed.

Lemma caller_step_in s i s' : c_step s i = Some s' -> In s' (caller_steps s).
Proof.
  unfold c_step, caller_steps. intros H. apply in_flat_map. exists i. split.
  - apply in_seq. split; [apply Nat.le_0_l|]. apply nth_error_Some. destruct (nth_error (callers s) i); discriminate.
  - destruct (nth_error (callers s) i) as [[| |]|]; try discriminate; injection H as <-; left; reflexivity.
Qed.

Lemma do_act_reach s a s' : do_act s a = Some s' -> Reach false false s s'.
Proof.
  destruct a as [|i| |c]; cbn [do_act].
  - unfold p_step. destruct (pc s) eqn:P; try discriminate.
    + destruct (poller_steps false false s) as [|s1 l] eqn:E1; [discriminate|]. intros H. apply hd_error_in in H.
      apply (RS _ _ _ s1); [apply reach1, SPoll; rewrite E1; left; reflexivity | apply SPoll, H].
    + destruct (closed s); [|discriminate]. intros H. apply reach1, SPoll, hd_error_in, H.
    + intros H. apply reach1, SPoll, hd_error_in, H.
  - intros H. apply reach1, SCall, caller_step_in with (1 := H).
  - unfold x_step. destruct (closed s); [discriminate|]. intros H. apply reach1, SClose, hd_error_in, H.
  - intros [= <-]. apply reach1, SEnv.
Qed.

Theorem forced_schedules_are_runs : forall l s s', run_acts l s = Some s' -> Reach false false s s'.
Proof.
  induction l as [|a l IH]; intros s s' H; cbn [run_acts] in H; [injection H as <-; apply R0|].
  destruct (do_act s a) as [s1|] eqn:E; [|discriminate].
  exact (reach_trans _ _ _ _ _ (do_act_reach _ _ _ E) (IH _ _ H)).
Qed.

(* hence, for a replayed schedule: a caller that has returned and after whose beginning no poll has started leaves the waiting
   poller's resolve-now branch enabled - the request cannot be lost in any forced schedule either *)
Corollary forced_not_lost n c0 l s i k : run_acts l (init n c0) = Some s ->
  nth_error (callers s) i = Some (CReturned k) -> polls s = k -> pc s = PSelect -> closed s = true /\ p_step s <> None.
Proof.
  intros R C P S. destruct (resolve_now_not_lost false n c0 s i k (forced_schedules_are_runs _ _ _ R) C P S) as [CL (s' & IN & _)].
  split; [exact CL|]. unfold p_step. rewrite S, CL. destruct (poller_steps false false s); [destruct IN | discriminate].
Qed.

(* the enumeration has schedules that begin: poll, caller, caller - the beginning of the one on which the seeded change
   C15-3 loses a request *)
Example enum_has_witness : In [AP; AC 0; AC 0] (map (firstn 3) (enum_acts 40 (init 1 0) 0 false [])).
Proof. vm_compute. auto 10. Qed.
