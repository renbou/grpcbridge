(* Facts about lists that the standard library of Coq 8.16 does not have; nothing here mentions the development's own
   definitions. *)
From Coq Require Import List Arith Lia.
Import ListNotations.

(* an invariant [P] of a fold, when every step is taken with an element satisfying [Q]; with membership in the list
   being folded for [Q] (fold_left_inv_In), [P] may speak about the whole list *)
Lemma fold_left_inv {A B} (f : A -> B -> A) (P : A -> Prop) (Q : B -> Prop) :
  (forall a b, P a -> Q b -> P (f a b)) -> forall l a, P a -> Forall Q l -> P (fold_left f l a).
Proof. intros S. induction l as [|b l IH]; intros a Pa F; [exact Pa|]. inversion F; subst. apply IH; auto. Qed.
Lemma fold_left_inv_In {A B} (f : A -> B -> A) (P : A -> Prop) l a :
  (forall a b, P a -> In b l -> P (f a b)) -> P a -> P (fold_left f l a).
Proof. intros S Pa. apply (fold_left_inv f P (fun b => In b l) S l a Pa), Forall_forall. auto. Qed.

Lemma filter_nil {A} (p : A -> bool) l : filter p l = [] <-> forall x, In x l -> p x = false.
Proof.
  induction l as [|a l IH]; cbn [filter]; [split; [intros _ x []|reflexivity]|].
  destruct (p a) eqn:E.
  - split; [discriminate|]. intros H. rewrite (H a (or_introl eq_refl)) in E. discriminate.
  - rewrite IH. split; [intros H x [<-|I]; auto | intros H x I; apply H; right; exact I].
Qed.
Lemma filter_all_id {A} (f : A -> bool) l : Forall (fun x => f x = true) l -> filter f l = l.
Proof. induction 1 as [|x l E _ IH]; [reflexivity|]. cbn [filter]. rewrite E, IH. reflexivity. Qed.
(* what a program learns from looking at the first element that passes a test *)
Lemma filter_head {A} (f : A -> bool) l :
  match filter f l with [] => forall x, In x l -> f x = false | a :: _ => In a l /\ f a = true end.
Proof.
  destruct (filter f l) as [|a r] eqn:F; [apply filter_nil, F|]. apply filter_In. rewrite F. left. reflexivity.
Qed.

Lemma NoDup_app {A} (a b : list A) : NoDup a -> NoDup b -> (forall x, In x a -> In x b -> False) -> NoDup (a ++ b).
Proof.
  induction a as [|x a IH]; intros Na Nb D; cbn [app]; [exact Nb|]. inversion Na; subst. constructor.
  - rewrite in_app_iff. intros [I|I]; [contradiction | eapply D; [left; reflexivity | exact I]].
  - apply IH; auto. intros y I1 I2. eapply D; [right; exact I1 | exact I2].
Qed.

Lemma NoDup_map_filter {A B} (f : A -> B) p l : NoDup (map f l) -> NoDup (map f (filter p l)).
Proof.
  induction l as [|a l IH]; cbn [filter map]; [auto|]. intros N. inversion N as [|? ? NI N']; subst.
  destruct (p a); [|auto]. cbn [map]. constructor; [|auto].
  intros I. apply in_map_iff in I as (h & E & I). apply filter_In in I as [I _]. rewrite <- E in NI. exact (NI (in_map f l h I)).
Qed.

Lemma forallb_map {A B} (f : A -> B) p l : forallb p (map f l) = forallb (fun x => p (f x)) l.
Proof. induction l as [|a l IH]; [reflexivity|]. cbn [map forallb]. rewrite IH. reflexivity. Qed.
Lemma forallb_cons {A} (p : A -> bool) x l : forallb p (x :: l) = true -> p x = true /\ forallb p l = true.
Proof. apply Bool.andb_true_iff. Qed.
Lemma forallb_imp {A} (p q : A -> bool) l : (forall x, p x = true -> q x = true) -> forallb p l = true -> forallb q l = true.
Proof. intros I H. apply forallb_forall. intros x Hx. apply I. revert x Hx. apply forallb_forall, H. Qed.
Lemma Forall_after {A} (P : A -> Prop) a x b : Forall P (a ++ x :: b) -> Forall P b.
Proof. intros H. apply Forall_app in H as [_ H]. inversion H; assumption. Qed.

Lemma firstn_exact {A} (a b : list A) : firstn (length a) (a ++ b) = a.
Proof. rewrite firstn_app, firstn_all, Nat.sub_diag. apply app_nil_r. Qed.
Lemma skipn_exact {A} (a b : list A) : skipn (length a) (a ++ b) = b.
Proof. rewrite skipn_app, skipn_all, Nat.sub_diag. reflexivity. Qed.
Lemma skipn_past {A} (a : list A) c b : skipn (S (length a)) (a ++ c :: b) = b.
Proof. induction a as [|x a IH]; [reflexivity | exact IH]. Qed.
(* consuming the next item extends the prefix consumed so far *)
Lemma firstn_snoc {A B} (f : B -> A) : forall l p x ys,
  nth_error l p = Some (f x) -> firstn p l = map f ys -> firstn (S p) l = map f (ys ++ [x]).
Proof.
  induction l as [|a l IH]; intros [|p] x ys N F; try discriminate; cbn in *.
  - destruct ys; [|discriminate]. injection N as ->. reflexivity.
  - destruct ys as [|y ys]; [discriminate|]. injection F as -> F. cbn. f_equal. eapply IH; eauto.
Qed.
Lemma firstn_single {A} p (l : list A) x : firstn p l = [x] -> exists rest, l = x :: rest.
Proof. destruct l as [|a l]; destruct p; simpl; try discriminate. intros [= -> _]. eauto. Qed.
Lemma hd_skipn {A} (d : A) : forall k s, hd d (skipn k s) = nth k s d.
Proof. induction k as [|k IH]; intros s; destruct s as [|a s]; try reflexivity. cbn [skipn nth]. apply IH. Qed.
Lemma in_last {A} (l : list A) d : l <> [] -> In (last l d) l.
Proof. induction l as [|a [|b l] IH]; intros NE; [contradiction | left; reflexivity | right; apply IH; discriminate]. Qed.
Lemma rev_nonempty {A} (a : A) l : rev (a :: l) <> [].
Proof. cbn. destruct (rev l); discriminate. Qed.

Lemma list_ind3 {A} (P : list A -> Prop) :
  P [] -> (forall a, P [a]) -> (forall a b, P [a; b]) -> (forall a b c r, P r -> P (a :: b :: c :: r)) -> forall l, P l.
Proof. intros H0 H1 H2 H3. fix IH 1. intros [|a [|b [|c r]]]; [exact H0|exact (H1 a)|exact (H2 a b)|exact (H3 a b c r (IH r))]. Qed.

(* a boolean fact about the first [k] numbers, as seen through an embedding of nat ([N.of_nat], [Z.of_nat]), follows from
   evaluating it on all of them *)
Lemma forallb_range {A} (of_nat : nat -> A) (to_nat : A -> nat) (p : A -> bool) k :
  forallb p (map of_nat (seq 0 k)) = true -> forall a, of_nat (to_nat a) = a -> (to_nat a < k)%nat -> p a = true.
Proof. intros H a E L. rewrite forallb_forall in H. apply H. rewrite <- E. apply in_map, in_seq. lia. Qed.
