(* C20: the routing parser accepts the text of every well-formed template and returns that template (parse_render).
   Each function of the parser has one exact specification (fp_spec, gw_segment_spec, gw_segments_spec, gw_tokenize as scan
   then verb_cut), read from right to left here, from left to right in TemplateSoundProofs.v and GwNoNestProofs.v. *)
From Coq Require Import Lia.
From GB Require Import Model.TemplateRun Proofs.ByteSearch Proofs.TemplateProofs.
Open Scope N_scope.

Definition tk (c : N) : bytes := [c].
Fixpoint toks_inner (inner : list seg) : list bytes :=
  match inner with [] => [] | s :: r => match r with [] => [tok_flat s] | _ => tok_flat s :: tk c_slash :: toks_inner r end end.
Fixpoint toks_path (p : list bytes) : list bytes :=
  match p with [] => [] | i :: r => match r with [] => [i] | _ => i :: tk c_dot :: toks_path r end end.
Definition toks_seg (s : seg) : list bytes :=
  match s with SVar p inner => tk c_lbrace :: toks_path p ++ tk c_eq :: toks_inner inner ++ [tk c_rbrace] | _ => [tok_flat s] end.
Fixpoint toks_segs (l : list seg) : list bytes :=
  match l with [] => [] | s :: r => match r with [] => toks_seg s | _ => toks_seg s ++ tk c_slash :: toks_segs r end end.

Definition not_tok (c : N) (rest : list bytes) : Prop := match rest with t :: _ => tok_is c t = false | [] => True end.

Lemma tok_is_tk c d : tok_is c (tk d) = (d =? c).
Proof. unfold tok_is, tk, bytes_eqb. cbn. destruct (d =? c); reflexivity. Qed.
Lemma tok_is_eq c t : tok_is c t = true -> t = [c].
Proof. apply bytes_eqb_eq. Qed.
Lemma punct_strict c t : punct false c t = tok_is c t.
Proof. unfold punct. cbn [andb]. apply orb_false_r. Qed.
Lemma punct_true c t : punct false c t = true -> t = [c].
Proof. rewrite punct_strict. apply bytes_eqb_eq. Qed.
Lemma punct_s_strict s t : punct_s false s t = bytes_eqb t s.
Proof. unfold punct_s. cbn [andb]. apply orb_false_r. Qed.

Lemma good_lit_iff l : good_lit l = true <->
  l <> [] /\ is_literal l = true /\ bytes_eqb l [c_star] = false /\ bytes_eqb l s_deep = false.
Proof. unfold good_lit. rewrite !andb_true_iff, !negb_true_iff. destruct l; intuition congruence. Qed.
Lemma good_var p inner : good_seg (SVar p inner) = true ->
  p <> [] /\ forallb is_ident p = true /\ inner <> [] /\ forallb good_flat inner = true.
Proof.
  cbn [good_seg]. rewrite !andb_true_iff. intros [[[Np Gp] Ni] Gi]. destruct p, inner; try discriminate. repeat split; (discriminate || assumption).
Qed.

Lemma toks_inner_cons s r : r <> [] -> toks_inner (s :: r) = tok_flat s :: tk c_slash :: toks_inner r.
Proof. destruct r; [contradiction|reflexivity]. Qed.
Lemma toks_segs_cons s s2 r : toks_segs (s :: s2 :: r) = toks_seg s ++ tk c_slash :: toks_segs (s2 :: r).
Proof. reflexivity. Qed.
Lemma toks_path_shape i p : toks_path (i :: p) = i :: flat_map (fun j => [tk c_dot; j]) p.
Proof.
  revert i; induction p as [|j p IH]; intros i; [reflexivity|].
  change (toks_path (i :: j :: p)) with (i :: tk c_dot :: toks_path (j :: p)). rewrite IH. reflexivity.
Qed.

Lemma concat_toks_path p : concat (toks_path p) = join_with c_dot p.
Proof.
  destruct p as [|i p]; [reflexivity|]. rewrite toks_path_shape. cbn [concat join_with]. f_equal.
  induction p as [|j p IH]; [reflexivity|]. cbn [flat_map concat app]. rewrite IH. reflexivity.
Qed.

(* fieldPath of both parsers: they differ only in the test for an identifier (Strict.st_ident lets the empty token pass),
   and are instances of [fp] by conversion *)
Section FieldPath.
Variable ident : bytes -> bool.
Fixpoint fp_rest (fuel : nat) (toks : list bytes) (acc : list bytes) : option (list bytes * list bytes) :=
  match fuel with
  | O => None
  | S f =>
      match toks with
      | d :: r => if tok_is c_dot d
                  then match r with
                       | c :: r' => if ident c then fp_rest f r' (acc ++ [c]) else None
                       | [] => None end
                  else Some (acc, toks)
      | [] => Some (acc, toks)
      end
  end.
Definition fp (toks : list bytes) : option (list bytes * list bytes) :=
  match toks with
  | c :: r => if ident c then fp_rest (length toks) r [c] else None
  | [] => None
  end.

Lemma fpr_inv : forall fuel toks acc p rest, fp_rest fuel toks acc = Some (p, rest) ->
  exists more, p = acc ++ more /\ toks = flat_map (fun i => [tk c_dot; i]) more ++ rest /\
               forallb ident more = true /\ not_tok c_dot rest.
Proof.
  induction fuel as [|f IH]; intros toks acc p rest H; cbn [fp_rest] in H; [discriminate|].
  destruct toks as [|d r]; [|destruct (tok_is c_dot d) eqn:D].
  1,3: injection H as <- <-; exists []; rewrite app_nil_r; repeat split; exact I || exact D.
  apply tok_is_eq in D as ->. destruct r as [|c r']; [discriminate|]. destruct (ident c) eqn:Ic; [|discriminate].
  destruct (IH _ _ _ _ H) as (more & -> & -> & F & ND). exists (c :: more). rewrite <- app_assoc. cbn [forallb]. rewrite Ic. auto.
Qed.
Lemma fpr_parse : forall more fuel acc rest, forallb ident more = true -> not_tok c_dot rest -> (length more < fuel)%nat ->
  fp_rest fuel (flat_map (fun i => [tk c_dot; i]) more ++ rest) acc = Some (acc ++ more, rest).
Proof.
  induction more as [|i more IH]; intros fuel acc rest G ND L; (destruct fuel as [|f]; [inversion L|]); cbn [flat_map app fp_rest].
  - rewrite app_nil_r. destruct rest as [|t r]; [reflexivity|]. cbn [not_tok] in ND. rewrite ND. reflexivity.
  - apply forallb_cons in G as [Gi G]. rewrite tok_is_tk, N.eqb_refl, Gi.
    rewrite (IH f (acc ++ [i]) rest G ND), <- app_assoc; [reflexivity | cbn [length] in L; lia].
Qed.
Lemma fp_spec toks p rest : fp toks = Some (p, rest) <->
  toks = toks_path p ++ rest /\ p <> [] /\ forallb ident p = true /\ not_tok c_dot rest.
Proof.
  unfold fp. split.
  - destruct toks as [|c r]; [discriminate|]. destruct (ident c) eqn:Ic; [|discriminate]. intros H.
    destruct (fpr_inv _ _ _ _ _ H) as (more & -> & -> & F & ND). cbn [app]. rewrite toks_path_shape. cbn [forallb]. rewrite Ic.
    repeat split; [discriminate | exact F | exact ND].
  - intros (-> & NE & F & ND). destruct p as [|i more]; [contradiction|]. rewrite toks_path_shape. cbn [app].
    apply forallb_cons in F as [-> F]. apply (fpr_parse more _ [i] rest F ND). cbn [length]. rewrite app_length.
    assert (length more <= length (flat_map (fun j => [tk c_dot; j]) more))%nat by (clear; induction more; cbn; lia). lia.
Qed.
End FieldPath.

Lemma gw_field_path_spec toks p rest : gw_field_path toks = Some (p, rest) <->
  toks = toks_path p ++ rest /\ p <> [] /\ forallb is_ident p = true /\ not_tok c_dot rest.
Proof. exact (fp_spec is_ident toks p rest). Qed.

Inductive seg_step (inner : list bytes -> option (list seg * list bytes)) : list bytes -> seg -> list bytes -> Prop :=
| step_wild r : seg_step inner (tk c_star :: r) SWild r
| step_deep r : seg_step inner (s_deep :: r) SDeep r
| step_lit t r : is_literal t = true -> bytes_eqb t [c_star] = false -> bytes_eqb t s_deep = false -> seg_step inner (t :: r) (SLit t) r
| step_short p r2 : p <> [] -> forallb is_ident p = true ->
    seg_step inner (tk c_lbrace :: toks_path p ++ tk c_rbrace :: r2) (SVar p [SWild]) r2
| step_var p r2 segs r4 : p <> [] -> forallb is_ident p = true -> inner r2 = Some (segs, tk c_rbrace :: r4) ->
    seg_step inner (tk c_lbrace :: toks_path p ++ tk c_eq :: r2) (SVar p segs) r4.

Lemma gw_segment_spec inner toks s rest : gw_segment false inner toks = Some (s, rest) <-> seg_step inner toks s rest.
Proof.
  unfold gw_segment. split.
  - destruct toks as [|t r]; [discriminate|].
    destruct (punct false c_star t) eqn:T1; [apply punct_true in T1 as ->; intros [= <- <-]; constructor|].
    destruct (punct_s false s_deep t) eqn:T2; [rewrite punct_s_strict in T2; apply bytes_eqb_eq in T2 as ->; intros [= <- <-]; constructor|].
    destruct (is_literal t) eqn:T3; [rewrite punct_strict in T1; rewrite punct_s_strict in T2; intros [= <- <-]; constructor; assumption|].
    destruct (punct false c_lbrace t) eqn:T4; [apply punct_true in T4 as ->|discriminate].
    destruct (gw_field_path r) as [[p [|e r2]]|] eqn:FP; try discriminate.
    apply gw_field_path_spec in FP as (-> & NE & F & _).
    destruct (punct false c_eq e) eqn:Te; [apply punct_true in Te as ->|].
    + destruct (inner r2) as [[segs [|c r4]]|] eqn:IN; try discriminate.
      destruct (punct false c_rbrace c) eqn:Tc; [apply punct_true in Tc as ->|discriminate]. intros [= <- <-]. constructor; assumption.
    + destruct (punct false c_rbrace e) eqn:Tr; [apply punct_true in Tr as ->|discriminate]. intros [= <- <-]. constructor; assumption.
  - intros [r|r|t r L N1 N2|p r2 NE F|p r2 segs r4 NE F IN]; [reflexivity | reflexivity | | |].
    + rewrite punct_strict, punct_s_strict. unfold tok_is. rewrite N1, N2, L. reflexivity.
    + rewrite (proj2 (gw_field_path_spec _ p (tk c_rbrace :: r2))) by (repeat split; auto). reflexivity.
    + rewrite (proj2 (gw_field_path_spec _ p (tk c_eq :: r2))) by (repeat split; auto). rewrite IN. reflexivity.
Qed.

Lemma flat_segment inner s rest : good_flat s = true -> gw_segment false inner (tok_flat s :: rest) = Some (s, rest).
Proof.
  intros G. apply gw_segment_spec. destruct s as [| |l|]; try discriminate; try constructor; apply good_lit_iff in G; tauto.
Qed.

Lemma gw_segments_spec f toks segs rest : gw_segments false (S f) toks = Some (segs, rest) <->
  exists s r, gw_segment false (gw_segments false f) toks = Some (s, r) /\
    ((segs = [s] /\ rest = r /\ not_tok c_slash r) \/
     exists r' more, r = tk c_slash :: r' /\ gw_segments false f r' = Some (more, rest) /\ segs = s :: more).
Proof.
  cbn [gw_segments]. split.
  - destruct (gw_segment false (gw_segments false f) toks) as [[s r]|]; [|discriminate]. intros H. exists s, r. split; [reflexivity|].
    destruct r as [|t r']; [injection H as <- <-; left; repeat split|]. rewrite punct_strict in H.
    destruct (tok_is c_slash t) eqn:Ts; [|injection H as <- <-; left; auto].
    apply tok_is_eq in Ts as ->. destruct (gw_segments false f r') as [[more r'']|] eqn:MORE; [|discriminate]. injection H as <- <-. right. exists r', more. auto.
  - intros (s & r & -> & [(-> & -> & NS)|(r' & more & -> & -> & ->)]); [|reflexivity].
    destruct r as [|t r']; [reflexivity|]. rewrite punct_strict. cbn [not_tok] in NS. rewrite NS. reflexivity.
Qed.

Definition inner_len (s : seg) : nat := match s with SVar _ inner => length inner | _ => O end.

(* the inside of a variable is a segment list of its own: flat segments, with the tokens and the fuel of such a list *)
Lemma flat_segs inner : forallb good_flat inner = true ->
  toks_inner inner = toks_segs inner /\ forallb good_seg inner = true /\ fold_right Nat.max O (map inner_len inner) = O.
Proof.
  induction inner as [|s inner IH]; intros G; [auto|]. apply forallb_cons in G as [Gs G].
  destruct (IH G) as (E & G' & M).
  assert (good_seg s = true /\ inner_len s = O /\ toks_seg s = [tok_flat s]) as (A & B & C) by (destruct s; try discriminate; auto).
  split; [|split].
  - destruct inner as [|s2 inner]; [symmetry; exact C|]. rewrite toks_inner_cons, E by discriminate.
    rewrite toks_segs_cons, C. reflexivity.
  - cbn [forallb]. rewrite A, G'. reflexivity.
  - cbn [map fold_right]. rewrite B, M. reflexivity.
Qed.

(* the whole segment list; by induction on the fuel, which both the tail of the list and the inside of a variable use up *)
Theorem segments_parse : forall segs f rest, forallb good_seg segs = true -> segs <> [] -> not_tok c_slash rest ->
  (length segs + fold_right Nat.max O (map inner_len segs) <= f)%nat ->
  gw_segments false f (toks_segs segs ++ rest) = Some (segs, rest).
Proof.
  intros segs f. revert segs. induction f as [|f IH]; intros [|s segs] rest G NE NS L; try contradiction; [cbn in L; lia|].
  apply forallb_cons in G as [Gs G]. cbn [length map fold_right] in L.
  assert (SEG : forall X, gw_segment false (gw_segments false f) (toks_seg s ++ X) = Some (s, X)).
  { intros X. destruct s as [| |l|p inner]; try exact (flat_segment _ _ X Gs).
    apply good_var in Gs as (Np & Gp & Ni & Gi). destruct (flat_segs inner Gi) as (E & Gi' & M).
    apply gw_segment_spec. cbn [toks_seg app]. rewrite <- !app_assoc. cbn [app]. rewrite <- app_assoc.
    constructor; [exact Np | exact Gp|].
    rewrite E. apply IH; [exact Gi' | exact Ni | reflexivity | rewrite M; cbn [inner_len] in L; clear - L; lia]. }
  apply gw_segments_spec. exists s. destruct segs as [|s2 segs].
  - exists rest. split; [apply SEG | left; auto].
  - rewrite toks_segs_cons, <- app_assoc.
    eexists. split; [apply SEG|]. right. eexists _, _. split; [reflexivity|]. split; [|reflexivity].
    apply IH; [exact G | discriminate | exact NS | cbn [length map fold_right] in L |- *; clear - L; lia].
Qed.

Lemma scan_run st t : forall rest cur, forallb (fun c => negb (is_delim st c)) t = true ->
  scan st (t ++ rest) cur = scan st rest (rev t ++ cur).
Proof.
  induction t as [|c t IH]; intros rest cur H; [reflexivity|].
  apply forallb_cons in H as [Hc H]. apply negb_true_iff in Hc.
  cbn [app scan]. rewrite Hc. rewrite (IH rest (c :: cur) H). cbn [rev]. rewrite <- app_assoc. reflexivity.
Qed.
Lemma scan_delim st d rest cur : is_delim st d = true ->
  scan st (d :: rest) cur = (match cur with [] => [] | _ => [rev cur] end) ++ [d] :: scan (next_state st d) rest [].
Proof. intros H. cbn [scan]. rewrite H. reflexivity. Qed.

Lemma flush_ne (t : bytes) : t <> [] -> match rev t with [] => [] | _ :: _ => [rev (rev t)] end = [t].
Proof. intros NE. rewrite rev_involutive. destruct t as [|c t]; [contradiction|]. destruct (rev (c :: t)) eqn:R; [destruct (rev_nonempty c t R) | reflexivity]. Qed.

Lemma scan_token st t d rest : t <> [] -> forallb (fun c => negb (is_delim st c)) t = true -> is_delim st d = true ->
  scan st (t ++ d :: rest) [] = t :: [d] :: scan (next_state st d) rest [].
Proof. intros NE H D. rewrite (scan_run st t _ [] H), app_nil_r, (scan_delim st d rest _ D), (flush_ne t NE). reflexivity. Qed.
Lemma scan_last st t : t <> [] -> forallb (fun c => negb (is_delim st c)) t = true -> scan st t [] = [t].
Proof. intros NE H. rewrite <- (app_nil_r t) at 1. rewrite (scan_run st t [] [] H), app_nil_r. exact (flush_ne t NE). Qed.

Definition pc_char (c : N) : bool := is_pchar_plain c || (c =? c_pct) || is_hex c.
Lemma pchars_chars : forall fuel l, pchars_f fuel l = true -> forallb pc_char l = true.
Proof.
  induction fuel as [|f IH]; intros l H; [destruct l; [reflexivity|discriminate]|].
  destruct l as [|c r]; [reflexivity|]. cbn [pchars_f] in H.
  destruct (c =? c_pct) eqn:E.
  - destruct r as [|h1 [|h2 r']]; try discriminate. apply andb_true_iff in H as [H H3]. apply andb_true_iff in H as [H1 H2].
    cbn [forallb]. unfold pc_char at 1 2 3. rewrite E, H1, H2, (IH _ H3), !orb_true_r. reflexivity.
  - apply andb_true_iff in H as [H1 H2]. cbn [forallb]. unfold pc_char at 1. rewrite H1, (IH _ H2). reflexivity.
Qed.
Definition id_char (c : N) : bool := is_alpha c || is_digit c || (c =? 95).
Lemma ident_chars i : is_ident i = true -> forallb id_char i = true /\ i <> [].
Proof.
  unfold is_ident. destruct i as [|c r]; [discriminate|]. intros H. apply andb_true_iff in H as [H1 H2]. split; [|discriminate].
  cbn [forallb]. unfold id_char at 1. apply orb_true_iff in H1. destruct H1 as [H1|H1]; rewrite H1, ?orb_true_r; cbn [orb andb]; exact H2.
Qed.

Lemma pchar_nodelim st c : (st = 0 \/ st = 2)%nat -> pc_char c = true -> is_delim st c = false.
Proof. intros [-> | ->] H; cbn [is_delim]; rewrite !(class_excludes pc_char c H) by reflexivity; reflexivity. Qed.
Lemma idchar_nodelim st c : id_char c = true -> is_delim st c = false.
Proof. intros H. destruct st as [|[|st]]; cbn [is_delim]; rewrite !(class_excludes id_char c H) by reflexivity; reflexivity. Qed.

Lemma literal_nodelim l st : is_literal l = true -> (st = 0 \/ st = 2)%nat -> forallb (fun c => negb (is_delim st c)) l = true.
Proof. intros H S. apply (forallb_imp pc_char); [intros c Hc; rewrite (pchar_nodelim st c S Hc); reflexivity | exact (pchars_chars _ _ H)]. Qed.
Lemma ident_nodelim st i : is_ident i = true -> forallb (fun c => negb (is_delim st c)) i = true.
Proof.
  intros H. apply (forallb_imp id_char); [intros c Hc; rewrite (idchar_nodelim st c Hc); reflexivity | exact (proj1 (ident_chars i H))].
Qed.

Lemma flat_token s st : good_flat s = true -> (st = 0 \/ st = 2)%nat ->
  tok_flat s <> [] /\ forallb (fun c => negb (is_delim st c)) (tok_flat s) = true.
Proof.
  intros G S. destruct s as [| |l|p i]; try discriminate; cbn [tok_flat].
  1,2: split; [discriminate | destruct S as [-> | ->]; reflexivity].
  apply good_lit_iff in G as (NE & G & _). split; [exact NE | exact (literal_nodelim l st G S)].
Qed.

Definition text_inner (inner : list seg) : bytes := join_with c_slash (map tok_flat inner).
Definition text_path (p : list bytes) : bytes := join_with c_dot p.

(* inside a variable, after the '=': tokens of the inner segments, then the closing brace switches back to state 0 *)
Lemma scan_inner : forall inner s rest, forallb good_flat (s :: inner) = true ->
  scan 2 (text_inner (s :: inner) ++ c_rbrace :: rest) [] = toks_inner (s :: inner) ++ tk c_rbrace :: scan 0 rest [].
Proof.
  unfold text_inner. induction inner as [|s2 inner IH]; intros s rest G; apply forallb_cons in G as [Gs G];
    destruct (flat_token s 2 Gs (or_intror eq_refl)) as [Tne Tnd].
  - cbn [map join_with flat_map toks_inner app]. rewrite app_nil_r. exact (scan_token 2 (tok_flat s) c_rbrace rest Tne Tnd eq_refl).
  - cbn [map]. rewrite join_cons, <- app_assoc. cbn [app]. rewrite (scan_token 2 (tok_flat s) c_slash _ Tne Tnd eq_refl).
    change (next_state 2 c_slash) with 2%nat. cbn [map] in IH. rewrite (IH s2 rest G). reflexivity.
Qed.

(* the field path, after the '{': identifiers separated by dots, up to the delimiter that closes it ('=', or '}' in "{p}") *)
Lemma scan_path d : is_delim 1 d = true -> forall p i rest, forallb is_ident (i :: p) = true ->
  scan 1 (text_path (i :: p) ++ d :: rest) [] = toks_path (i :: p) ++ [d] :: scan (next_state 1 d) rest [].
Proof.
  intros D. unfold text_path. induction p as [|j p IH]; intros i rest G; apply forallb_cons in G as [Gi G];
    destruct (ident_chars i Gi) as [_ Ine]; pose proof (ident_nodelim 1 i Gi) as Ind.
  - cbn [join_with flat_map toks_path app]. rewrite app_nil_r. exact (scan_token 1 i d rest Ine Ind D).
  - rewrite join_cons, <- app_assoc. cbn [app]. rewrite (scan_token 1 i c_dot _ Ine Ind eq_refl). change (next_state 1 c_dot) with 1%nat.
    rewrite (IH j rest G). reflexivity.
Qed.

Definition text_seg (s : seg) : bytes :=
  match s with SVar p inner => c_lbrace :: text_path p ++ c_eq :: text_inner inner ++ [c_rbrace] | _ => tok_flat s end.

Lemma scan_var p inner rest : good_seg (SVar p inner) = true ->
  scan 0 (text_seg (SVar p inner) ++ rest) [] = toks_seg (SVar p inner) ++ scan 0 rest [].
Proof.
  intros G. apply good_var in G as (Np & Gp & Ni & Gi). destruct p as [|i p], inner as [|s inner]; try contradiction.
  cbn [text_seg toks_seg app]. rewrite (scan_delim 0 c_lbrace _ [] eq_refl). cbn [app]. change (next_state 0 c_lbrace) with 1%nat.
  f_equal. rewrite <- !app_assoc. cbn [app]. rewrite (scan_path c_eq eq_refl p i _ Gp). change (next_state 1 c_eq) with 2%nat.
  rewrite <- !app_assoc. cbn [app]. rewrite (scan_inner inner s rest Gi). reflexivity.
Qed.

Lemma scan_seg s rest : good_seg s = true -> scan 0 (text_seg s ++ c_slash :: rest) [] = toks_seg s ++ tk c_slash :: scan 0 rest [].
Proof.
  intros G. destruct s as [| |l|p inner].
  4:{ rewrite (scan_var p inner _ G), (scan_delim 0 c_slash rest [] eq_refl). reflexivity. }
  all: destruct (flat_token _ 0%nat G (or_introl eq_refl)) as [T1 T2]; exact (scan_token 0 _ c_slash rest T1 T2 eq_refl).
Qed.

Definition text_segs (segs : list seg) : bytes := join_with c_slash (map text_seg segs).

(* gw_tokenize is scan followed by [verb_cut] of the last token: behind a variable's closing brace at the FIRST colon,
   otherwise at the LAST one *)
Definition after_var (pre : list bytes) : bool := match rev pre with p :: _ => bytes_eqb p [c_rbrace] | [] => false end.
Definition verb_cut (pre : list bytes) (t : bytes) : list bytes * bytes :=
  match (if after_var pre then index_of c_colon t O else last_index_of c_colon t O None) with
  | Some O => (pre ++ [eof], skipn 1 t)
  | Some i => (pre ++ [firstn i t; eof], skipn (S i) t)
  | None => (pre ++ [t; eof], [])
  end.

Lemma gw_tokenize_snoc path pre t : scan 0 path [] = pre ++ [t] -> gw_tokenize path = verb_cut pre t.
Proof.
  intros E. unfold gw_tokenize, verb_cut, after_var. destruct path as [|c p]; [destruct pre; discriminate|].
  rewrite E, last_last, removelast_last, rev_unit, <- app_assoc. reflexivity.
Qed.

Lemma verb_cut_none pre t : free c_colon t = true -> verb_cut pre t = (pre ++ [t; eof], []).
Proof. intros F. unfold verb_cut. rewrite (index_free _ _ _ F), (last_index_free _ _ _ _ F). destruct (after_var pre); reflexivity. Qed.

Lemma verb_cut_glued pre a v : a <> [] -> free c_colon v = true -> after_var pre = false ->
  verb_cut pre (a ++ c_colon :: v) = (pre ++ [a; eof], v).
Proof.
  intros NE F AV. unfold verb_cut. rewrite AV, (last_index_cut _ _ F). cbn [Nat.add].
  pose proof (firstn_exact a (c_colon :: v)) as Fa. pose proof (skipn_past a c_colon v) as Sa.
  destruct a as [|x a]; [contradiction|]. cbn [length] in *. rewrite Fa, Sa. reflexivity.
Qed.

Lemma verb_cut_after_var pre v : verb_cut (pre ++ [[c_rbrace]]) (c_colon :: v) = ((pre ++ [[c_rbrace]]) ++ [eof], v).
Proof. unfold verb_cut, after_var. rewrite rev_unit. reflexivity. Qed.

(* the cut looks at the last token and at the one in front of it only *)
Lemma verb_cut_cons x pre t : verb_cut (x ++ tk c_slash :: pre) t = let '(toks, v) := verb_cut pre t in (x ++ tk c_slash :: toks, v).
Proof.
  unfold verb_cut. replace (after_var (x ++ tk c_slash :: pre)) with (after_var pre).
  2:{ unfold after_var. rewrite rev_app_distr. cbn [rev]. destruct (rev pre); reflexivity. }
  destruct (if after_var pre then _ else _) as [[|i]|]; rewrite <- app_assoc; reflexivity.
Qed.

(* a = [] is the verb as a token of its own (behind a variable, or in "/:v"): no token is left in its place *)
Lemma verb_cut_inv pre t toks verb : verb_cut pre t = (toks, verb) ->
  (toks = pre ++ [t; eof] /\ verb = []) \/
  exists a, t = a ++ c_colon :: verb /\ toks = pre ++ match a with [] => [] | _ => [a] end ++ [eof].
Proof.
  unfold verb_cut. destruct (if after_var pre then _ else _) as [i|] eqn:IX; [|intros [= <- <-]; left; auto].
  assert (exists a b, t = a ++ c_colon :: b /\ i = length a) as (a & b & -> & ->).
  { destruct (after_var pre); [apply index_some in IX | apply last_index_some in IX]; destruct IX as (a & b & E & _ & L); eauto. }
  pose proof (firstn_exact a (c_colon :: b)) as Fa. pose proof (skipn_past a c_colon b) as Sa.
  intros H. right. exists a. destruct a as [|x a]; cbn [length] in *; rewrite ?Fa, Sa in H; injection H as <- <-; auto.
Qed.

Definition vsuffix (verb : bytes) : bytes := match verb with [] => [] | _ => c_colon :: verb end.

Lemma toks_var_snoc p inner : toks_seg (SVar p inner) = (tk c_lbrace :: toks_path p ++ tk c_eq :: toks_inner inner) ++ [tk c_rbrace].
Proof. cbn [toks_seg app]. rewrite <- app_assoc. reflexivity. Qed.

(* the tokens of the text up to the last one, and what the cut makes of that one; by induction on the segments, the cases
   being those of a single segment *)
Lemma scan_then_cut : forall segs verb, segs <> [] -> forallb good_seg segs = true -> is_literal verb = true -> verb_ok segs verb = true ->
  exists pre t, scan 0 (text_segs segs ++ vsuffix verb) [] = pre ++ [t] /\ verb_cut pre t = (toks_segs segs ++ [eof], verb).
Proof.
  unfold text_segs. induction segs as [|s [|s2 segs] IH]; intros verb NE G LV VO; [contradiction| |];
    apply forallb_cons in G as [Gs G].
  2:{ destruct (IH verb ltac:(discriminate) G LV VO) as (pre & t & SC & VC). exists (toks_seg s ++ tk c_slash :: pre), t.
      cbn [map] in *. rewrite join_cons, <- !app_assoc. cbn [app]. rewrite (scan_seg s _ Gs), SC, verb_cut_cons, VC. split; [reflexivity|].
      rewrite toks_segs_cons, <- app_assoc. reflexivity. }
  assert (SF : forallb (fun c => negb (is_delim 0 c)) (vsuffix verb) = true).
  { destruct verb as [|v0 v]; [reflexivity|]. exact (literal_nodelim (v0 :: v) 0%nat LV (or_introl eq_refl)). }
  cbn [map join_with flat_map toks_segs]. rewrite app_nil_r. unfold verb_ok in VO. cbn [last] in VO. destruct s as [| |l|p inner].
  4:{ (* behind a variable the verb is a token of its own *)
      rewrite (scan_var p inner _ Gs), toks_var_snoc. destruct verb as [|v0 v]; cbn [vsuffix].
      - eexists _, _. split; [rewrite app_nil_r; reflexivity|]. rewrite verb_cut_none, <- app_assoc by reflexivity. reflexivity.
      - eexists _, _. split; [rewrite (scan_last 0 (c_colon :: v0 :: v) ltac:(discriminate) SF); reflexivity | apply verb_cut_after_var]. }
  (* the verb is glued to the one, flat, token: no colon behind the cut *)
  all: destruct (flat_token _ 0%nat Gs (or_introl eq_refl)) as [T1 T2]; exists []; eexists; split.
  1,3,5: apply scan_last; [intros E; apply app_eq_nil in E as [E _]; exact (T1 E) | rewrite forallb_app, SF, andb_true_r; exact T2].
  all: destruct verb as [|v0 v]; cbn [vsuffix]; [rewrite app_nil_r; exact (verb_cut_none [] _ VO) | exact (verb_cut_glued [] _ _ T1 VO eq_refl)].
Qed.

Lemma tokenize_text segs verb : segs <> [] -> forallb good_seg segs = true -> is_literal verb = true -> verb_ok segs verb = true ->
  gw_tokenize (text_segs segs ++ vsuffix verb) = (toks_segs segs ++ [eof], verb).
Proof. intros NE G LV VO. destruct (scan_then_cut segs verb NE G LV VO) as (pre & t & SC & VC). rewrite (gw_tokenize_snoc _ _ _ SC). exact VC. Qed.

Lemma seg_render s : good_seg s = true -> render_seg s = text_seg s.
Proof.
  destruct s as [| |l|p inner]; intros G; try reflexivity.
  apply good_var in G as (_ & _ & _ & Gi). rewrite forallb_forall in Gi. cbn [render_seg text_seg]. unfold text_inner, text_path.
  rewrite (map_ext_in render_seg tok_flat inner); [reflexivity|].
  intros x Hx. specialize (Gi x Hx). destruct x; try discriminate; reflexivity.
Qed.

Definition nz (t : bytes) : bool := forallb (fun c => negb (c =? 0)) t.
Lemma nz_existsb t : nz t = true -> existsb (N.eqb 0) t = false.
Proof. exact (free_existsb 0 t). Qed.
Lemma literal_nz l : is_literal l = true -> nz l = true.
Proof. intros H. exact (class_free pc_char 0 l eq_refl (pchars_chars _ _ H)). Qed.
Lemma ident_nz i : is_ident i = true -> nz i = true.
Proof. intros H. exact (class_free id_char 0 i eq_refl (proj1 (ident_chars i H))). Qed.
Lemma nz_app a b : nz (a ++ b) = nz a && nz b. Proof. apply forallb_app. Qed.
Lemma nz_cons c t : nz (c :: t) = negb (c =? 0) && nz t. Proof. reflexivity. Qed.
Lemma nz_join sep l : (sep =? 0) = false -> forallb nz l = true -> nz (join_with sep l) = true.
Proof.
  intros Hs H. destruct l as [|a r]; [reflexivity|]. apply forallb_cons in H as [Ha H].
  cbn [join_with]. rewrite nz_app, Ha. cbn [andb]. induction r as [|b r IH]; [reflexivity|].
  apply forallb_cons in H as [Hb H]. cbn [flat_map]. rewrite nz_app, nz_cons, Hs, Hb. exact (IH H).
Qed.
Lemma flat_nz s : good_flat s = true -> nz (tok_flat s) = true.
Proof.
  destruct s as [| |l|]; intros G; try discriminate; try reflexivity. apply good_lit_iff in G as (_ & G & _). exact (literal_nz l G).
Qed.
Lemma seg_nz s : good_seg s = true -> nz (text_seg s) = true.
Proof.
  destruct s as [| |l|p inner]; intros G; try exact (flat_nz _ G).
  apply good_var in G as (_ & Gp & _ & Gi). cbn [text_seg]. rewrite nz_cons, nz_app, nz_cons, nz_app. unfold text_path, text_inner.
  rewrite !nz_join; [reflexivity | reflexivity | | reflexivity |].
  - rewrite forallb_map. exact (forallb_imp _ _ _ flat_nz Gi).
  - exact (forallb_imp _ _ _ ident_nz Gp).
Qed.

Lemma toks_len_bound segs : (length segs + fold_right Nat.max O (map inner_len segs) <= S (length (toks_segs segs ++ [eof])))%nat.
Proof.
  assert (A : forall s, (inner_len s < length (toks_seg s))%nat).
  { intros [| |l|p inner]; cbn [toks_seg inner_len length]; try lia. rewrite app_length. cbn [length]. rewrite app_length.
    enough (length inner <= length (toks_inner inner))%nat by lia. induction inner as [|a [|b r] IH]; cbn [toks_inner length] in *; lia. }
  rewrite app_length.
  induction segs as [|s [|s2 r] IH]; [cbn; lia | specialize (A s); cbn [toks_segs map fold_right length]; lia|].
  rewrite toks_segs_cons, app_length.
  specialize (A s). cbn [length map fold_right] in *. lia.
Qed.

Theorem parse_render t : good_template t = true -> gw_parse false (render t) = Some t.
Proof.
  destruct t as [segs verb]. unfold good_template. cbn [t_segs t_verb]. rewrite !andb_true_iff. intros [[[NEb GS] LV] VO].
  assert (NE : segs <> []) by (destruct segs; discriminate).
  assert (R : render {| t_segs := segs; t_verb := verb |} = c_slash :: text_segs segs ++ vsuffix verb).
  { unfold render, text_segs. cbn [t_segs t_verb]. pose proof (proj1 (forallb_forall _ _) GS) as GS'. rewrite (map_ext_in _ _ _ (fun s Hs => seg_render s (GS' s Hs))).
    destruct verb; reflexivity. }
  rewrite R. unfold gw_parse. change (c_slash =? c_slash) with true.
  assert (NZ : existsb (N.eqb 0) (c_slash :: text_segs segs ++ vsuffix verb) = false).
  { apply nz_existsb. rewrite nz_cons, nz_app. unfold text_segs. rewrite nz_join; [|reflexivity|rewrite forallb_map; exact (forallb_imp _ _ _ seg_nz GS)].
    destruct verb as [|v0 v]; [reflexivity|]. cbn [vsuffix]. rewrite nz_cons. exact (literal_nz _ LV). }
  rewrite NZ. cbn [negb andb]. rewrite (tokenize_text segs verb NE GS LV VO). rewrite LV. cbn [negb].
  (* the end marker is no segment: had the first token been it, the descent would have failed *)
  pose proof (segments_parse segs _ [eof] GS NE eq_refl (toks_len_bound segs)) as SP.
  destruct (toks_segs segs ++ [eof]) as [|t0 tr]; [discriminate SP|].
  destruct (bytes_eqb_spec t0 eof) as [->|_]; [discriminate SP|]. rewrite SP, bytes_eqb_refl. reflexivity.
Qed.

(* non-vacuity: a template with every construct satisfies the hypothesis *)
Definition bb (l : list N) : bytes := l.
Example good_example :
  good_template {| t_segs := [SLit (bb [118;49]); SVar [bb [110;97;109;101]; bb [105;100]] [SLit (bb [97;37;50;70]); SWild; SDeep]];
                   t_verb := bb [119;58;120] |} = true.
Proof. reflexivity. Qed.
Print Assumptions parse_render.

(* templates of the language never nest variables: the matching theorems of C03 apply to all of them *)
Lemma good_seg_ok s : good_seg s = true -> seg_ok s = true.
Proof.
  destruct s as [| |l|p inner]; intros G; try reflexivity. apply good_var in G as (_ & _ & _ & Gi).
  refine (forallb_imp _ _ _ _ Gi). intros [| | |]; (reflexivity || discriminate).
Qed.
Lemma good_template_seg_ok t : good_template t = true -> forallb seg_ok (t_segs t) = true.
Proof. unfold good_template. rewrite !andb_true_iff. intros [[[_ G] _] _]. exact (forallb_imp _ _ _ good_seg_ok G). Qed.

(* from the TEXT of a binding's template to what it matches: the route compiled from render t behaves like t *)
Theorem text_to_route t comps : good_template t = true ->
  exists t', gw_parse false (render t) = Some t' /\ route_step false (compile t') (t_verb t') comps = spec_step t comps.
Proof.
  intros G. exists t. split; [exact (parse_render t G)|]. apply route_step_spec. exact (good_template_seg_ok t G).
Qed.
