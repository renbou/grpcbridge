From GB Require Import Model.SvcRoute Proofs.Common.
Open Scope Z_scope.

Lemma cut_slash_app svc m : ~ In 47%N svc -> cut_slash (svc ++ 47%N :: m) = Some (svc, m).
Proof.
  induction svc as [|c svc IH]; intros H; simpl; [reflexivity|].
  destruct (N.eqb_spec c 47) as [->|N]; [exfalso; apply H; left; reflexivity|].
  rewrite IH; [reflexivity|]. intros I; apply H; right; exact I.
Qed.

Lemma cut_slash_sound s a b : cut_slash s = Some (a, b) -> s = a ++ 47%N :: b /\ ~ In 47%N a.
Proof.
  revert a b. induction s as [|c s IH]; intros a b H; simpl in H; [discriminate|].
  destruct (N.eqb_spec c 47) as [->|N].
  - injection H as <- <-. split; [reflexivity | intros []].
  - destruct (cut_slash s) as [[a' b']|] eqn:E; [|discriminate]. injection H as <- <-.
    destruct (IH a' b' eq_refl) as [-> NI]. split; [reflexivity|]. intros [I|I]; [congruence | contradiction].
Qed.

Lemma cut_slash_none s : ~ In 47%N s -> cut_slash s = None.
Proof.
  intros H. destruct (cut_slash s) as [[a b]|] eqn:E; [|reflexivity].
  apply cut_slash_sound in E as [-> _]. destruct H. apply in_elt.
Qed.

(* parse law: with or without the leading slash; any method string, verbatim *)
Theorem parse_law svc m : ~ In 47%N svc ->
  parse_rpc_name (47%N :: svc ++ 47%N :: m) = Some (svc, m) /\
  (svc <> [] -> parse_rpc_name (svc ++ 47%N :: m) = Some (svc, m)).
Proof.
  intros H. split.
  - unfold parse_rpc_name. simpl. apply cut_slash_app; exact H.
  - intros NE. unfold parse_rpc_name, strip_slash. destruct svc as [|c svc]; [congruence|]. cbn [app].
    destruct (N.eqb_spec c 47) as [->|N]; [exfalso; apply H; left; reflexivity|].
    apply (cut_slash_app (c :: svc) m H).
Qed.

(* whatever is accepted is split at the FIRST slash after the optional leading one; nothing else is accepted *)
Theorem parse_sound name svc m : parse_rpc_name name = Some (svc, m) ->
  (name = 47%N :: svc ++ 47%N :: m \/ name = svc ++ 47%N :: m) /\ ~ In 47%N svc.
Proof.
  unfold parse_rpc_name, strip_slash. intros H.
  destruct name as [|c r]; [discriminate|].
  destruct (N.eqb_spec c 47) as [->|N]; apply cut_slash_sound in H as [-> NI]; auto.
Qed.

Theorem parse_rejects name : ~ In 47%N (strip_slash name) -> parse_rpc_name name = None.
Proof. intros H. unfold parse_rpc_name. apply cut_slash_none. exact H. Qed.

(* the routing result: owner of the service table, method verbatim *)
Lemma route_name_full k http s svc m : ~ In 47%N svc -> (k = KHttp -> http = s_post) ->
  route_name k http s (full_name svc m) =
  match probe_grpc s svc with
  | Some r => VL [VN 0; VS (sr_target r); VS (obs_svc k svc); VS (full_name svc m)]
  | None => VL [VN (match k with KHttp => 5 | _ => 12 end)]
  end.
Proof.
  intros NI HP. unfold route_name.
  assert (P : parse_rpc_name (full_name svc m) = Some (svc, m)) by (apply parse_law; exact NI).
  destruct k; try (rewrite P; reflexivity).
  rewrite (HP eq_refl), bytes_eqb_refl, P. reflexivity.
Qed.

Theorem route_found k http s svc m r :
  ~ In 47%N svc -> (k = KHttp -> http = s_post) ->
  probe_grpc s svc = Some r ->
  route_name k http s (full_name svc m) = VL [VN 0; VS (sr_target r); VS (obs_svc k svc); VS (full_name svc m)].
Proof. intros NI HP PR. rewrite route_name_full, PR by assumption. reflexivity. Qed.

Theorem route_unknown k http s svc m :
  ~ In 47%N svc -> (k = KHttp -> http = s_post) ->
  probe_grpc s svc = None ->
  route_name k http s (full_name svc m) = VL [VN (match k with KHttp => 5 | _ => 12 end)].
Proof. intros NI HP PR. rewrite route_name_full, PR by assumption. reflexivity. Qed.

Theorem route_non_post s name http : bytes_eqb http s_post = false -> route_name KHttp http s name = VL [VN 12; VN 405].
Proof. intros H. unfold route_name. rewrite H. reflexivity. Qed.

Example parse_ex : parse_rpc_name [47;97;46;66;47;77;47;120;37;50;70]%N = Some ([97;46;66], [77;47;120;37;50;70])%N.
Proof. reflexivity. Qed.
