(* The property-only checkers (parts whose reference is computed next to the implementation: protojson, the bytes that were
   sent) have no model behind them; what CAN be proved about them is that the executable statement says what its comment
   says: a verdict "ok" means the equalities hold as equalities of values, not just of some boolean test. *)
From GB Require Import Model.ForwardRun Model.TranscodeRun.
From GB Require Import Proofs.Common.

(* C01 bytes: no failure reported <-> the target received the client's bytes, the client the target's, and the target's final status *)
Lemma c01_bytes_exact input impl :
  prop_c01_bytes input impl = None <->
  nthv 0 impl = nthv 1 input /\ nthv 1 impl = nthv 2 input /\ nthv 2 impl = nthv 3 input.
Proof.
  unfold prop_c01_bytes.
  destruct (val_eqb_spec (nthv 0 impl) (nthv 1 input)); cbn [negb]; [|split; [discriminate | tauto]].
  destruct (val_eqb_spec (nthv 1 impl) (nthv 2 input)); cbn [negb]; [|split; [discriminate | tauto]].
  destruct (val_eqb_spec (nthv 2 impl) (nthv 3 input)); cbn [negb]; [|split; [discriminate | tauto]].
  tauto.
Qed.

(* C09 wkt, arbitrary texts: no failure reported -> no panic, and if codec and reference both accept they stored the same message *)
Lemma c09_wkt_text_sound input impl :
  as_Z (nthv 0 input) = 0 -> prop_c09_wkt input impl = None ->
  is_panic (nthv 0 impl) = false /\ (is_acc (nthv 0 impl) = true -> is_acc (nthv 1 impl) = true -> nthv 0 impl = nthv 1 impl).
Proof.
  unfold prop_c09_wkt. intros ->.
  destruct (is_panic (nthv 0 impl)); [discriminate|]. intros H. split; [reflexivity|]. intros A0 A1.
  rewrite A0, A1 in H. destruct (val_eqb_spec (nthv 0 impl) (nthv 1 impl)); [assumption | discriminate].
Qed.

(* C09 wkt, values: no failure reported -> both round trips (own encoding, canonical encoding) give the value back *)
Lemma c09_wkt_value_sound input impl :
  as_Z (nthv 0 input) <> 0 -> prop_c09_wkt input impl = None ->
  nthv 0 impl = nthv 2 impl /\ nthv 1 impl = nthv 2 impl.
Proof.
  unfold prop_c09_wkt. intros Hk.
  destruct (as_Z (nthv 0 input)); [contradiction| |];
    (destruct (is_panic (nthv 0 impl) || is_panic (nthv 1 impl)); [discriminate|];
     destruct (val_eqb_spec (nthv 0 impl) (nthv 2 impl)); [|discriminate];
     destruct (val_eqb_spec (nthv 1 impl) (nthv 2 impl)); [|discriminate]; auto).
Qed.

(* C04 wktparam, canonical texts: no failure reported -> the value arrived *)
Lemma c04_text_canonical_sound input impl :
  as_Z (nthv 0 input) = 1 -> prop_c04_text input impl = None -> nthv 0 impl = nthv 1 impl.
Proof.
  unfold prop_c04_text. intros ->. set (g := nthv 0 impl). set (wnt := nthv 1 impl).
  set (body := if negb (res_acc g) && _ then _ else _).
  (* the first match only singles out the list [VN 99]: in every other case it is [body] *)
  assert (B : match as_L g with [VN 99] => Some 4 | _ => body end = None -> body = None).
  { destruct (as_L g) as [|[[|p|p]| |] t]; try exact id. do 7 (destruct p as [p|p|]; try exact id). destruct t; [discriminate | exact id]. }
  intros H. apply B in H. unfold body in H.
  destruct (negb (res_acc g) && negb (val_eqb g (VL [VN 3]))); [discriminate|]. cbn [Z.eqb Pos.eqb] in H.
  destruct (val_eqb_spec g wnt); [assumption|discriminate].
Qed.
