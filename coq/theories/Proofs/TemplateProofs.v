From Coq Require Import Lia ZifyBool.
From GB Require Import Model.TemplateRun Proofs.ByteSearch.
Open Scope N_scope.

Definition flat (s : seg) : bool := match s with SVar _ _ => false | _ => true end.

(* inner segments (no variables): the machine pushes one value per segment, in order; the matcher's accumulator is the
   machine's stack upside down *)
Lemma run_inner : forall inner rest tl comps acc stack vars,
  forallb flat inner = true ->
  run_ops (flat_map compile_seg inner ++ rest) tl comps (rev acc ++ stack) vars =
  match match_inner inner tl comps acc with
  | None => NotMatch
  | Some None => Malformed
  | Some (Some (vals, comps')) => run_ops rest tl comps' (rev vals ++ stack) vars
  end.
Proof.
  induction inner as [|s inner IH]; intros rest tl comps acc stack vars F; [reflexivity|].
  apply forallb_cons in F as [Fs F].
  (* one step of the machine and of the matcher, the same for the three kinds; then the rest, with the value on both sides *)
  destruct s as [| |l|]; try discriminate; cbn [flat_map match_inner compile_seg app run_ops];
    [destruct comps as [|c cs]; [reflexivity|]; destruct (unescape false c) as [u|]; [|reflexivity]
    | destruct (Nat.ltb _ _); [reflexivity|]; destruct (unescape true _) as [u|]; [|reflexivity]
    | destruct comps as [|c cs]; [reflexivity|]; destruct (bytes_eqb c l); [|reflexivity]];
    rewrite <- (IH _ _ _ _ _ _ F), rev_unit; reflexivity.
Qed.
Lemma match_inner_count : forall inner tl comps acc vals rest, match_inner inner tl comps acc = Some (Some (vals, rest)) ->
  length vals = (length acc + length inner)%nat.
Proof.
  induction inner as [|s inner IH]; intros tl comps acc vals rest H; cbn [match_inner] in H; [injection H as <- _; cbn; lia|].
  destruct s as [| |l|]; try discriminate;
    [destruct comps as [|c cs]; [discriminate|]; destruct (unescape false c); [|discriminate]
    | destruct (Nat.ltb _ _); [discriminate|]; destruct (unescape true _); [|discriminate]
    | destruct comps as [|c cs]; [discriminate|]; destruct (bytes_eqb c l); [|discriminate]];
    apply IH in H; rewrite app_length in H; cbn in *; lia.
Qed.

Definition seg_ok (s : seg) : bool := match s with SVar _ inner => forallb flat inner | _ => true end.

Lemma compile_correct_stack : forall segs tl comps stack vars, forallb seg_ok segs = true ->
  run_ops (flat_map compile_seg segs) tl comps stack vars = match_segs segs tl comps vars.
Proof.
  induction segs as [|s segs IH]; intros tl comps stack vars F; [reflexivity|].
  apply forallb_cons in F as [Fs F].
  assert (FLAT : forall x, compile_seg x = flat_map compile_seg [x]) by (intros x; cbn [flat_map]; rewrite app_nil_r; reflexivity).
  change stack with (rev [] ++ stack). destruct s as [| |l|path inner]; cbn [flat_map match_segs].
  1-3: rewrite FLAT, run_inner by reflexivity;
       destruct (match_inner [_] tl comps []) as [[[vals rest]|]|]; try reflexivity; apply IH; exact F.
  - cbn [compile_seg seg_ok] in *. rewrite <- !app_assoc. rewrite (run_inner inner _ tl comps [] stack vars Fs).
    destruct (match_inner inner tl comps []) as [[[vals rest]|]|] eqn:M; try reflexivity.
    pose proof (match_inner_count _ _ _ _ _ _ M) as L. cbn [length Nat.add] in L. cbn [app run_ops].
    rewrite <- L, <- (rev_length vals), firstn_exact, skipn_exact, rev_involutive. apply IH; exact F.
Qed.

Theorem compile_correct : forall t tl comps, forallb seg_ok (t_segs t) = true ->
  run_ops (compile t) tl comps [] [] = match_segs (t_segs t) tl comps [].
Proof. intros t tl comps F. unfold compile. apply compile_correct_stack; exact F. Qed.

Theorem route_step_spec : forall t comps, forallb seg_ok (t_segs t) = true ->
  route_step false (compile t) (t_verb t) comps = spec_step t comps.
Proof.
  intros t comps F. unfold route_step, spec_step, match_pattern. set (lastc := last comps []).
  destruct (t_verb t) as [|v0 v'].
  - rewrite (compile_correct t _ comps F). reflexivity.
  - destruct (ends_with lastc (c_colon :: v0 :: v')) eqn:E; cbn [andb]; [|reflexivity].
    (* the last component is a ++ ":" ++ verb; the positions computed from the lengths are the cut *)
    apply ends_with_iff in E as [a ->]. rewrite app_length. cbn [length].
    replace (length a + S (S (length v')) - S (length v') - 1)%nat with (length a) by lia.
    destruct a as [|x a].
    + cbn [length Nat.add Nat.eqb]. rewrite Nat.eqb_refl. reflexivity.
    + replace (Nat.eqb (length (x :: a) + S (S (length v'))) (S (S (length v')))) with false by (symmetry; apply Nat.eqb_neq; cbn [length]; lia).
      rewrite firstn_exact, skipn_past, bytes_eqb_refl, (compile_correct t _ _ F). reflexivity.
Qed.

(* the only errors of a route step: InvalidArgument for a malformed escape, and NotFound for a verb-only last component
   where that aborts the lookup *)
Lemma route_step_codes abort ops pverb comps c : route_step abort ops pverb comps = Abort c -> c = 3%Z \/ (abort = true /\ c = 5%Z).
Proof.
  unfold route_step. set (has := match pverb with [] => false | _ :: _ => ends_with (last comps []) (c_colon :: pverb) end).
  destruct (has && Nat.eqb (length (last comps []) - length pverb - 1) 0); [destruct abort; [intros [= <-]; auto | discriminate]|].
  destruct (if has then _ else _) as [mc v]. destruct (match_pattern ops pverb mc v); try discriminate. intros [= <-]. auto.
Qed.

Definition to_ops (r : Z * Z * template) : Z * Z * list op * bytes := let '(ti, bi, t) := r in (ti, bi, compile t, t_verb t).

Lemma first_route_spec : forall routes comps, (forall ti bi t, In (ti, bi, t) routes -> forallb seg_ok (t_segs t) = true) ->
  first_route false (map to_ops routes) comps = spec_route routes comps.
Proof.
  induction routes as [|[[ti bi] t] routes IH]; intros comps F; [reflexivity|].
  cbn [map to_ops first_route spec_route]. rewrite (route_step_spec t comps (F ti bi t (or_introl eq_refl))).
  destruct (spec_step t comps); try reflexivity. apply IH. intros ti' bi' t' Hin. apply (F ti' bi' t'). right; exact Hin.
Qed.

Lemma first_route_codes abort : forall routes comps c, first_route abort routes comps = VL [VN c] -> c = 5%Z \/ c = 3%Z.
Proof.
  induction routes as [|[[[ti bi] ops] verb] routes IH]; intros comps c H; cbn [first_route] in H; [injection H as <-; auto|].
  destruct (route_step abort ops verb comps) as [|c'|vars] eqn:RS; [exact (IH _ _ H) | | discriminate].
  injection H as <-. destruct (route_step_codes _ _ _ _ _ RS) as [->|[_ ->]]; auto.
Qed.

(* what "the first matching binding wins" means *)
Lemma spec_route_first : forall routes comps ti bi vars,
  spec_route routes comps = VL [VN 0; VN ti; VN bi; v_vars vars] ->
  exists before t after vars', routes = before ++ (ti, bi, t) :: after /\ spec_step t comps = Found vars' /\ v_vars vars' = v_vars vars /\
    forall r, In r before -> spec_step (snd r) comps = Skip.
Proof.
  induction routes as [|[[ti0 bi0] t0] routes IH]; intros comps ti bi vars H; cbn [spec_route] in H; [discriminate|].
  destruct (spec_step t0 comps) as [|c|vars0] eqn:S.
  - destruct (IH _ _ _ _ H) as (before & t & after & vars' & -> & St & Ev & B).
    exists ((ti0, bi0, t0) :: before), t, after, vars'. repeat split; auto.
    intros r [<-|Hin]; [exact S|exact (B r Hin)].
  - discriminate.
  - injection H as -> -> Ev. exists [], t0, routes, vars0. repeat split; [exact S | exact (f_equal VL Ev) | intros r []].
Qed.
Lemma spec_step_abort t comps c : spec_step t comps = Abort c -> c = 3%Z.
Proof.
  unfold spec_step. destruct (t_verb t) as [|v0 v'].
  - destruct (match_segs _ _ _ _); intros H; try discriminate. injection H as <-. reflexivity.
  - destruct (ends_with _ _ && _); [|discriminate]. destruct (match_segs _ _ _ _); intros H; try discriminate. injection H as <-. reflexivity.
Qed.
Lemma spec_route_notfound : forall routes comps, spec_route routes comps = VL [VN 5] -> forall r, In r routes -> spec_step (snd r) comps = Skip.
Proof.
  induction routes as [|[[ti0 bi0] t0] routes IH]; intros comps H r Hin; [destruct Hin|]. cbn [spec_route] in H.
  destruct (spec_step t0 comps) as [|c|vars0] eqn:S; try discriminate.
  - destruct Hin as [<-|Hin]; [exact S|exact (IH _ H r Hin)].
  - apply spec_step_abort in S. subst c. discriminate.
Qed.

Definition hexd (n : N) : N := if n <? 10 then 48 + n else 55 + n.
Definition pct (c : N) : bytes := [c_pct; hexd (c / 16); hexd (c mod 16)].
Lemma hexd_roundtrip n : n < 16 -> is_hex (hexd n) = true /\ hexv (hexd n) = n.
Proof.
  (* below ten a digit, from ten on an upper-case letter: hexv takes off the offset of whichever it is *)
  intros H. unfold hexd, is_hex, hexv. destruct (N.ltb_spec n 10).
  - replace (is_digit (48 + n)) with true by (unfold is_digit; lia). split; [reflexivity | lia].
  - replace (is_digit (55 + n)) with false by (unfold is_digit; lia). replace (97 <=? 55 + n) with false by lia. split; lia.
Qed.
Lemma pct_decodes c : c < 256 -> is_hex (hexd (c / 16)) = true /\ is_hex (hexd (c mod 16)) = true /\ hexv (hexd (c / 16)) * 16 + hexv (hexd (c mod 16)) = c.
Proof.
  intros H. destruct (hexd_roundtrip (c / 16)) as [A1 A2]; [apply N.div_lt_upper_bound; [discriminate | exact H]|].
  destruct (hexd_roundtrip (c mod 16)) as [B1 B2]; [apply N.mod_lt; discriminate|].
  repeat split; auto. rewrite A2, B2, N.mul_comm. symmetry. apply N.div_mod'.
Qed.

Lemma unescape_pct fuel multi c rest : c < 256 ->
  unescape_f (S fuel) multi (pct c ++ rest) =
  option_map (fun t => if multi && is_reserved c then pct c ++ t else c :: t) (unescape_f fuel multi rest).
Proof.
  intros Hc. cbn [pct app unescape_f]. rewrite N.eqb_refl. destruct (pct_decodes c Hc) as (H1 & H2 & H3). rewrite H1, H2, H3. cbn [andb].
  destruct (unescape_f fuel multi rest); reflexivity.
Qed.
Lemma unescape_plain fuel multi c rest : (c =? c_pct) = false ->
  unescape_f (S fuel) multi (c :: rest) = option_map (cons c) (unescape_f fuel multi rest).
Proof. intros Hc. cbn [unescape_f]. rewrite Hc. destruct (unescape_f fuel multi rest); reflexivity. Qed.

(* a single-segment capture of a fully percent-encoded byte string is that byte string: one decoding, nothing left *)
Lemma unescape_f_pct_all : forall s fuel, Forall (fun c => c < 256) s -> (length (flat_map pct s) <= fuel)%nat ->
  unescape_f fuel false (flat_map pct s) = Some s.
Proof.
  induction s as [|c s IH]; intros fuel A L; [destruct fuel; reflexivity|]. inversion A as [|? ? Hc Hs]; subst.
  cbn [flat_map] in *. destruct fuel as [|fuel]; [cbn in L; lia|].
  rewrite (unescape_pct _ _ _ _ Hc), IH; [reflexivity | exact Hs | cbn in L; lia].
Qed.
Theorem unescape_pct_all s : Forall (fun c => c < 256) s -> unescape false (flat_map pct s) = Some s.
Proof. intros A. apply unescape_f_pct_all; [exact A|lia]. Qed.

Lemma unescape_f_plain : forall s fuel multi, (length s <= fuel)%nat -> forallb (fun c => negb (c =? c_pct)) s = true -> unescape_f fuel multi s = Some s.
Proof.
  induction s as [|c s IH]; intros fuel multi L P; [destruct fuel; reflexivity|]. cbn [length] in L. destruct fuel as [|fuel]; [lia|].
  apply free_cons in P as [Pc Ps]. rewrite (unescape_plain _ _ _ _ Pc), IH; [reflexivity | lia | exact Ps].
Qed.

(* decoding once: an escaped percent sign yields a percent sign that is NOT decoded again *)
Example decode_once : unescape false [37; 50; 53; 50; 48] = Some [37; 50; 48].    (* %2520 -> %20 *)
Proof. reflexivity. Qed.
(* reserved characters stay encoded in multi-segment captures only *)
Example reserved_multi : unescape true [97; 37; 50; 70; 98] = Some [97; 37; 50; 70; 98] /\ unescape false [97; 37; 50; 70; 98] = Some [97; 47; 98].
Proof. split; reflexivity. Qed.

Lemma unescape_multi_step c rest fuel t : c < 256 -> unescape_f fuel true rest = Some t ->
  unescape_f (S fuel) true (pct c ++ rest) = Some (if is_reserved c then pct c ++ t else c :: t).
Proof. intros Hc R. rewrite (unescape_pct _ _ _ _ Hc), R. reflexivity. Qed.

(* a run of segments without variables is read back from its opcodes, one segment per opcode; variables (OConcat /
   OCapture) are not covered *)
Lemma decompile_flat : forall inner rest stack, forallb flat inner = true ->
  decompile (flat_map compile_seg inner ++ rest) stack = decompile rest (rev inner ++ stack).
Proof.
  induction inner as [|s inner IH]; intros rest stack F; [reflexivity|].
  apply forallb_cons in F as [Fs F].
  destruct s; try discriminate; cbn [flat_map compile_seg app decompile rev]; rewrite IH by exact F; rewrite <- app_assoc; reflexivity.
Qed.
