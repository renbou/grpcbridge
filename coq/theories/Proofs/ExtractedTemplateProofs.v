(* C20 / C03: the tables that tools/extract_tables REGENERATES from the template code on every run
   (Gen/Extracted.v: the tokenizers' delimiter sets per state, the path-character marks of both literal checkers, the
   end-of-input marker) are the ones the hand-written model uses.  A change of one of those tables in the source changes
   Extracted.v and breaks these lemmas (the differential runs then look for a string that shows the difference). *)
From Coq Require Import Lia.
From GB Require Import Gen.Extracted Model.Template.
Open Scope N_scope.

Lemma strict_delims_model : forall st c, (st < 3)%nat -> is_delim st c = existsb (N.eqb c) (nth st strict_delims []).
Proof.
  intros st c L. destruct st as [|[|[|st]]]; [| | |exfalso; lia];
    cbn [is_delim nth strict_delims existsb]; unfold c_slash, c_lbrace, c_dot, c_eq, c_rbrace; rewrite ?orb_false_r, ?orb_assoc; reflexivity.
Qed.
Lemma gw_delims_model : forall st c, (st < 3)%nat -> is_delim st c = existsb (N.eqb c) (nth st gw_delims []).
Proof. exact strict_delims_model. Qed.   (* both tokenizers have the same table *)
Lemma strict_pchar_model : forall c, is_pchar_plain c = is_alpha c || is_digit c || existsb (N.eqb c) strict_pchar_marks.
Proof. reflexivity. Qed.
Lemma gw_pchar_model : forall c, is_pchar_plain c = is_alpha c || is_digit c || existsb (N.eqb c) gw_pchar_marks.
Proof. reflexivity. Qed.
Lemma eof_model : eof = strict_eof /\ eof = gw_eof.
Proof. split; reflexivity. Qed.
