(* C20, the strict parser, the other direction: every string of the strict template language (StrictLang,
   Proofs/StrictProofs.v) is accepted, with exactly the structure it derives from - both spellings of a variable
   ("{p}" and "{p=*}"), every verb form.  Together with st_parse_sound: st_parse s = Some t <-> StrictLang t s. *)
From Coq Require Import Lia.
From GB Require Import Model.Strict Proofs.ByteSearch Proofs.TemplateParseProofs Proofs.TemplateSoundProofs Proofs.StrictProofs.
Open Scope N_scope.

(* a segment as it is spelled, in full or as "{p}": its text and its tokens *)
Definition short_text (p : list bytes) : bytes := c_lbrace :: text_path p ++ [c_rbrace].
Definition short_toks (p : list bytes) : list bytes := tk c_lbrace :: toks_path p ++ [tk c_rbrace].
Definition SP (s : seg) (txt : bytes) (tks : list bytes) : Prop :=
  (txt = text_seg s /\ tks = toks_seg s) \/ (exists p, s = SVar p [SWild] /\ txt = short_text p /\ tks = short_toks p).

Lemma Rsegs_flat : forall inner txts, forallb good_flat inner = true -> Rsegs inner txts -> txts = map tok_flat inner.
Proof.
  induction inner as [|s inner IH]; intros txts G R; destruct txts as [|t txts]; try destruct R; [reflexivity|].
  apply forallb_cons in G as [Gs G]. cbn [map]. f_equal; [|apply IH; assumption].
  destruct s as [| |l|p i]; try discriminate; cbn [Rseg tok_flat] in *; [assumption | assumption | tauto].
Qed.

Lemma Rseg_SP s txt : st_seg_ok s = true -> Rseg s txt -> exists tks, SP s txt tks.
Proof.
  intros OK R. destruct s as [| |l|p inner].
  1-3: eexists; left; split; [first [exact R | exact (proj1 R)] | reflexivity].
  - apply Rseg_var in R. destruct R as (P1 & P2 & [[-> ->]|(txts & RS & TN & ->)]).
    + exists (short_toks p). right. exists p. auto.
    + exists (toks_seg (SVar p inner)). left. split; [|reflexivity].
      apply st_seg_ok_var in OK. destruct OK as (_ & _ & _ & GF & _). rewrite (Rsegs_flat inner txts GF RS). reflexivity.
Qed.

Lemma ok_good s : st_seg_ok s = true -> good_seg s = true.
Proof. unfold st_seg_ok. intros H. apply andb_true_iff in H. tauto. Qed.

Lemma idents_st p : forallb is_ident p = true -> forallb st_ident p = true.
Proof. exact (forallb_imp is_ident st_ident p ident_st). Qed.
Lemma st_field_path_parse p rest : p <> [] -> forallb is_ident p = true -> not_tok c_dot rest ->
  st_field_path (toks_path p ++ rest) = Some (p, rest).
Proof. intros NE G ND. apply st_field_path_spec. auto using idents_st. Qed.
Lemma st_fpr_step f i r acc : is_ident i = true ->
  st_field_path_rest (S f) (tk c_dot :: i :: r) acc = st_field_path_rest f r (acc ++ [i]).
Proof. intros Gi. cbn [st_field_path_rest]. rewrite tok_is_tk. change (c_dot =? c_dot) with true. cbv iota. rewrite (ident_st i Gi). reflexivity. Qed.
Lemma st_fpr_stop f rest acc : not_tok c_dot rest -> st_field_path_rest (S f) rest acc = Some (acc, rest).
Proof. intros ND. cbn [st_field_path_rest]. destruct rest as [|t r]; [reflexivity|]. cbn [not_tok] in ND. rewrite ND. reflexivity. Qed.
Lemma st_field_path_rest_ok : forall p f acc rest, forallb is_ident p = true -> not_tok c_dot rest -> (length p <= f)%nat ->
  st_field_path_rest (S f) (flat_map (fun i => [tk c_dot; i]) p ++ rest) acc = Some (acc ++ p, rest).
Proof. intros p f acc rest G ND L. exact (fpr_parse st_ident p (S f) acc rest (idents_st p G) ND (le_n_S _ _ L)). Qed.

Lemma st_flat_segment inner s rest : good_flat s = true -> st_segment inner (tok_flat s :: rest) = Some (s, is_deep s, rest).
Proof. intros G. apply st_segment_spec. pose proof (PFlat inner _ rest (flat_literal s G)) as P. rewrite (relit_flat s G) in P. exact P. Qed.

Lemma st_after_segment f s ms r rest' :
  st_segment (st_segments f) r = Some (s, ms, rest') ->
  st_segments (S f) r =
    if ms then Some ([s], true, rest') else
    match rest' with
    | t :: r' => if tok_is c_slash t then match st_segments f r' with Some (more, m, r'') => Some (s :: more, m, r'') | None => None end
                 else Some ([s], false, rest')
    | [] => Some ([s], false, rest')
    end.
Proof. intros H. cbn [st_segments]. rewrite H. reflexivity. Qed.

Lemma deep_only_last_cons s x r : deep_only_last (s :: x :: r) = negb (is_deep s) && deep_only_last (x :: r).
Proof. reflexivity. Qed.
Lemma multi_only_last_cons s x r : multi_only_last (s :: x :: r) = negb (is_multi s) && multi_only_last (x :: r).
Proof. reflexivity. Qed.

Lemma st_inner_parse : forall inner f rest, forallb good_flat inner = true -> inner <> [] -> deep_only_last inner = true ->
  not_tok c_slash rest -> (length (toks_inner inner ++ rest) < f)%nat ->
  st_segments f (toks_inner inner ++ rest) = Some (inner, is_deep (last inner SWild), rest).
Proof.
  induction inner as [|s inner IH]; intros f rest G NE DL NS L; [contradiction|].
  apply forallb_cons in G as [Gs G].
  destruct f as [|f]; [inversion L|].
  apply st_segments_spec. destruct inner as [|s2 inner].
  - exact (POne f _ s _ rest (st_flat_segment _ s rest Gs) (or_intror NS)).
  - rewrite toks_inner_cons in L |- * by discriminate. cbn [app length] in L |- *. rewrite (last_cons_ne s (s2 :: inner) SWild ltac:(discriminate)).
    rewrite deep_only_last_cons in DL. apply andb_true_iff in DL. destruct DL as [D1 DL]. apply negb_true_iff in D1.
    apply (PMore f _ s (toks_inner (s2 :: inner) ++ rest)); [rewrite <- D1; exact (st_flat_segment _ s _ Gs)|].
    apply Nat.succ_lt_mono in L. exact (IH f rest G ltac:(discriminate) DL NS (Nat.lt_succ_l _ _ L)).
Qed.

Lemma st_segment_parse f s txt tks rest : st_seg_ok s = true -> SP s txt tks ->
  (length (tks ++ rest) <= f)%nat ->
  st_segment (st_segments f) (tks ++ rest) = Some (s, is_multi s, rest).
Proof.
  intros OK SPx L. destruct s as [| |l|p inner].
  1-3: destruct SPx as [[_ ->]|(q & X & _)]; [exact (st_flat_segment _ _ rest (ok_good _ OK)) | discriminate].
  apply st_seg_ok_var in OK. destruct OK as (NEp & Gp & NEi & Gi & DL). apply st_segment_spec. destruct SPx as [[_ ->]|(q & X & _ & ->)].
  - change (is_multi (SVar p inner)) with (is_deep (last inner SWild)).
    cbn [toks_seg app] in L |- *. rewrite <- !app_assoc in L |- *. cbn [app] in L |- *. rewrite <- app_assoc in L |- *.
    apply (PLong _ p _ inner _ rest NEp (idents_st p Gp)), (st_inner_parse inner f (tk c_rbrace :: rest) Gi NEi DL eq_refl).
    cbn [length app] in L. rewrite app_length in L. cbn [length] in L. lia.
  - injection X as <- ->. unfold short_toks. cbn [app]. rewrite <- app_assoc.
    exact (PShort _ p rest NEp (idents_st p Gp)).
Qed.

Definition sitem := (seg * bytes * list bytes)%type.
Definition i_seg (x : sitem) : seg := fst (fst x).
Definition i_txt (x : sitem) : bytes := snd (fst x).
Definition i_tks (x : sitem) : list bytes := snd x.
Definition item_ok (x : sitem) : Prop := st_seg_ok (i_seg x) = true /\ SP (i_seg x) (i_txt x) (i_tks x).
Fixpoint toks_all (l : list sitem) : list bytes :=
  match l with [] => [] | x :: r => match r with [] => i_tks x | _ => i_tks x ++ tk c_slash :: toks_all r end end.

Lemma build_items : forall segs txts, forallb st_seg_ok segs = true -> Rsegs segs txts ->
  exists l, map i_seg l = segs /\ map i_txt l = txts /\ Forall item_ok l.
Proof.
  induction segs as [|s segs IH]; intros txts OK R; destruct txts as [|t txts]; try (destruct R; fail).
  - exists []. auto.
  - destruct R as [Rs R]. apply forallb_cons in OK as [Os OK].
    destruct (IH txts OK R) as (l & E1 & E2 & F). destruct (Rseg_SP s t Os Rs) as [tks S1].
    exists ((s, t, tks) :: l). cbn [map i_seg i_txt fst snd]. rewrite E1, E2. split; [reflexivity|]. split; [reflexivity|].
    constructor; [split; assumption | exact F].
Qed.

Theorem st_segments_parse : forall l f rest, Forall item_ok l -> l <> [] ->
  multi_only_last (map i_seg l) = true -> not_tok c_slash rest -> (length (toks_all l ++ rest) < f)%nat ->
  st_segments f (toks_all l ++ rest) = Some (map i_seg l, is_multi (last (map i_seg l) SWild), rest).
Proof.
  induction l as [|x l IH]; intros f rest F NE ML NS L; [contradiction|].
  destruct (Forall_inv F) as [Ox Sx]. apply Forall_inv_tail in F. destruct f as [|f]; [inversion L|]. apply Nat.succ_le_mono in L.
  apply st_segments_spec. destruct l as [|y l].
  - exact (POne f _ _ _ rest (st_segment_parse f _ _ _ rest Ox Sx L) (or_intror NS)).
  - change (toks_all (x :: y :: l)) with (i_tks x ++ tk c_slash :: toks_all (y :: l)) in L |- *. rewrite <- app_assoc in L |- *. cbn [app map] in L, ML |- *.
    rewrite multi_only_last_cons in ML. apply andb_true_iff in ML. destruct ML as [M1 ML]. apply negb_true_iff in M1.
    rewrite (last_cons_ne (i_seg x) (i_seg y :: map i_seg l) SWild ltac:(discriminate)).
    apply (PMore f _ _ (toks_all (y :: l) ++ rest)); [rewrite <- M1; exact (st_segment_parse f _ _ _ _ Ox Sx L)|].
    apply (IH f rest F ltac:(discriminate) ML NS). rewrite app_length in L. cbn [length] in L. lia.
Qed.

Definition nd0 (t : bytes) : bool := forallb (fun c => negb (is_delim 0 c)) t.

Lemma scan_path_close : forall p rest, forallb is_ident p = true -> p <> [] ->
  scan 1 (text_path p ++ c_rbrace :: rest) [] = toks_path p ++ tk c_rbrace :: scan 0 rest [].
Proof. intros [|i p] rest G NE; [contradiction | exact (scan_path c_rbrace eq_refl p i rest G)]. Qed.
Lemma scan_short p rest : p <> [] -> forallb is_ident p = true ->
  scan 0 (short_text p ++ rest) [] = short_toks p ++ scan 0 rest [].
Proof.
  intros NE G. unfold short_text, short_toks. cbn [app]. rewrite (scan_delim 0 c_lbrace _ [] eq_refl). cbn [app].
  change (next_state 0 c_lbrace) with 1%nat. f_equal. rewrite <- !app_assoc. exact (scan_path_close p rest G NE).
Qed.

Lemma scan_item x rest : item_ok x -> is_var (i_seg x) = true -> scan 0 (i_txt x ++ rest) [] = i_tks x ++ scan 0 rest [].
Proof.
  intros [OK S1] V. destruct x as [[s txt] tks]. cbn [i_seg i_txt i_tks fst snd] in *. destruct s as [| |l|p inner]; try discriminate.
  pose proof (ok_good _ OK) as G.
  destruct S1 as [[-> ->]|(q & X & -> & ->)].
  - exact (scan_var p inner rest G).
  - injection X as <- ->. apply st_seg_ok_var in OK. apply scan_short; tauto.
Qed.

Lemma flat_item x : item_ok x -> is_var (i_seg x) = false ->
  good_flat (i_seg x) = true /\ i_txt x = tok_flat (i_seg x) /\ i_tks x = [i_txt x] /\ i_txt x <> [] /\ nd0 (i_txt x) = true.
Proof.
  intros [OK S1] V. destruct x as [[s txt] tks]. cbn [i_seg i_txt i_tks fst snd] in *.
  assert (GF : good_flat s = true) by (pose proof (ok_good _ OK) as G; destruct s; try discriminate; exact G).
  destruct S1 as [[-> ->]|(q & X & _)]; [|subst s; discriminate].
  destruct (flat_token s 0%nat GF (or_introl eq_refl)) as [T1 T2].
  split; [exact GF|]. destruct s; try discriminate; cbn [text_seg toks_seg tok_flat] in *; auto.
Qed.

Lemma scan_item_sep x rest : item_ok x -> match rest with [] => True | d :: _ => is_delim 0 d = true end ->
  scan 0 (i_txt x ++ rest) [] = i_tks x ++ scan 0 rest [].
Proof.
  intros Ix D. destruct (is_var (i_seg x)) eqn:V; [exact (scan_item x rest Ix V)|].
  destruct (flat_item x Ix V) as (_ & _ & -> & T1 & T2). destruct rest as [|d r].
  - rewrite app_nil_r. apply scan_last; assumption.
  - rewrite (scan_token 0 (i_txt x) d r T1 T2 D), (scan_delim 0 d r [] D). reflexivity.
Qed.

Theorem scan_items : forall l suffix, Forall item_ok l -> l <> [] ->
  (suffix = [] \/ (is_var (last (map i_seg l) SWild) = true /\ nd0 suffix = true)) ->
  scan 0 (join_with c_slash (map i_txt l) ++ suffix) [] = toks_all l ++ match suffix with [] => [] | _ => [suffix] end.
Proof.
  induction l as [|x l IH]; intros suffix F NE SF; [contradiction|].
  pose proof (Forall_inv F) as Ix. apply Forall_inv_tail in F. destruct l as [|y l].
  - cbn [map join_with flat_map toks_all]. rewrite app_nil_r. destruct SF as [->|[V ND]]; [exact (scan_item_sep x [] Ix I)|].
    rewrite (scan_item x suffix Ix V). f_equal. destruct suffix; [reflexivity | apply scan_last; [discriminate | exact ND]].
  - cbn [map]. rewrite join_cons, <- app_assoc. cbn [app].
    change (toks_all (x :: y :: l)) with (i_tks x ++ tk c_slash :: toks_all (y :: l)). rewrite <- app_assoc. cbn [app].
    rewrite (scan_item_sep x (c_slash :: _) Ix eq_refl), (scan_delim 0 c_slash _ [] eq_refl). cbn [app]. f_equal. f_equal.
    exact (IH suffix F ltac:(discriminate) SF).
Qed.

Lemma toks_path_len p : p <> [] -> (1 <= length (toks_path p))%nat.
Proof. destruct p as [|i [|j p]]; [contradiction | cbn; lia | cbn; lia]. Qed.

Lemma path_nz p : forallb is_ident p = true -> nz (text_path p) = true.
Proof.
  intros Gp. apply nz_join; [reflexivity | exact (forallb_imp is_ident nz p ident_nz Gp)].
Qed.
Lemma Rseg_nz s txt : st_seg_ok s = true -> Rseg s txt -> nz txt = true.
Proof.
  intros OK R. destruct (Rseg_SP s txt OK R) as [tks [[-> _]|(p & -> & -> & _)]]; [exact (seg_nz s (ok_good s OK))|].
  apply st_seg_ok_var in OK. destruct OK as (_ & Gp & _). unfold short_text. rewrite nz_cons, nz_app, (path_nz p Gp). reflexivity.
Qed.
Lemma Rsegs_nz : forall segs txts, forallb st_seg_ok segs = true -> Rsegs segs txts -> forallb nz txts = true.
Proof.
  induction segs as [|s segs IH]; intros txts OK R; destruct txts as [|t txts]; try (destruct R; fail); [reflexivity|].
  destruct R as [Rs R]. apply forallb_cons in OK as [Os OK]. cbn [forallb].
  rewrite (Rseg_nz s t Os Rs), (IH txts OK R). reflexivity.
Qed.

Lemma items_head l rest : Forall item_ok l -> l <> [] -> exists t0 tr, toks_all l ++ rest = t0 :: tr /\ bytes_eqb t0 eof = false.
Proof.
  intros F NE. destruct l as [|x l]; [contradiction|]. destruct (Forall_inv F) as [OK S1].
  assert (E : exists r, toks_all (x :: l) ++ rest = i_tks x ++ r) by (destruct l; cbn [toks_all]; rewrite <- ?app_assoc; eauto).
  destruct E as [r ->]. pose proof (st_segment_parse _ _ _ _ r OK S1 (le_n _)) as P.
  (* the end marker is no segment: had the first token been it, segment() would have failed *)
  destruct (i_tks x ++ r) as [|t0 tr]; [discriminate P|]. exists t0, tr. split; [reflexivity|].
  destruct (bytes_eqb_spec t0 eof) as [->|_]; [discriminate P | reflexivity].
Qed.

Lemma parse_items l rest : Forall item_ok l -> l <> [] -> multi_only_last (map i_seg l) = true -> not_tok c_slash rest ->
  st_segments (S (length (toks_all l ++ rest))) (toks_all l ++ rest) = Some (map i_seg l, is_multi (last (map i_seg l) SWild), rest).
Proof. intros F NE ML NS. apply st_segments_parse; try assumption. apply Nat.lt_succ_diag_r. Qed.

Lemma st_parse_of_tokens path t0 tr : nz path = true -> scan 0 path [] ++ [eof] = t0 :: tr -> bytes_eqb t0 eof = false ->
  st_parse (c_slash :: path) =
  match st_segments (S (length (t0 :: tr))) (t0 :: tr) with Some (segs, _, lft) => st_template segs lft | None => None end.
Proof.
  intros Z E B. unfold st_parse. change (c_slash =? c_slash) with true.
  assert (existsb (N.eqb 0) (c_slash :: path) = false) as -> by (cbn [existsb]; rewrite (nz_existsb path Z); reflexivity).
  cbn [negb andb]. unfold st_tokenize. rewrite E, B. reflexivity.
Qed.

Lemma no_colon_last_none l0 : no_colon l0 = true -> last_index_of c_colon l0 0 None = None.
Proof. intros H. exact (last_index_free c_colon l0 0%nat None H). Qed.

Lemma not_slash_colon v : tok_is c_slash (c_colon :: v) = false.
Proof. reflexivity. Qed.
Lemma colon_not_eof v : bytes_eqb (c_colon :: v) eof = false.
Proof. reflexivity. Qed.

Lemma glued_good x v : is_literal x = true -> is_literal v = true -> good_lit (x ++ c_colon :: v) = true.
Proof.
  intros Lx Lv. assert (NS : forall y, no_colon y = true -> bytes_eqb (x ++ c_colon :: v) y = false).
  { intros y F. apply bytes_eqb_neq. intros <-. unfold no_colon in F. rewrite forallb_app in F. cbn [forallb] in F.
    rewrite N.eqb_refl, andb_false_r in F. discriminate F. }
  unfold good_lit. rewrite lit_colon_split, Lx, Lv, (NS [c_star]), (NS s_deep) by reflexivity. destruct x; reflexivity.
Qed.

Lemma st_finish_eof segs verb : st_finish segs verb [eof] = Some {| t_segs := segs; t_verb := verb |}.
Proof. reflexivity. Qed.

(* st_parse on the text of spelled segments, followed by a verb token of its own if the last one is a variable *)
Definition sfx_tok (sfx : bytes) : list bytes := match sfx with [] => [] | _ => [sfx] end.
Lemma st_parse_items l sfx : Forall item_ok l -> l <> [] -> multi_only_last (map i_seg l) = true ->
  nz (join_with c_slash (map i_txt l) ++ sfx) = true ->
  sfx = [] \/ (is_var (last (map i_seg l) SWild) = true /\ nd0 sfx = true /\ tok_is c_slash sfx = false) ->
  st_parse (c_slash :: join_with c_slash (map i_txt l) ++ sfx) = st_template (map i_seg l) (sfx_tok sfx ++ [eof]).
Proof.
  intros F NE LB Z SF.
  assert (SC : scan 0 (join_with c_slash (map i_txt l) ++ sfx) [] = toks_all l ++ sfx_tok sfx).
  { apply scan_items; [exact F | exact NE |]. destruct SF as [->|(V & ND & _)]; auto. }
  assert (NS : not_tok c_slash (sfx_tok sfx ++ [eof])).
  { destruct SF as [->|(_ & _ & NS)]; [reflexivity|]. destruct sfx; [reflexivity | exact NS]. }
  revert SC NS. generalize (sfx_tok sfx). intros w SC NS.
  destruct (items_head l (w ++ [eof]) F NE) as (t0 & tr & ET & B).
  rewrite (st_parse_of_tokens _ t0 tr Z ltac:(rewrite SC, <- app_assoc; exact ET) B).
  rewrite <- ET, (parse_items l (w ++ [eof]) F NE LB NS). reflexivity.
Qed.

(* the verb is glued to a last literal [lit] (to nothing: the root); the parser reads one literal and splits it at its last colon *)
Lemma st_parse_glued l0 lit verb : Forall item_ok l0 -> is_literal lit = true -> (lit = [] -> l0 = []) ->
  multi_only_last (map i_seg l0 ++ [relit lit]) = true -> forallb nz (map i_txt l0) = true -> is_literal verb = true -> no_colon verb = true ->
  st_parse (c_slash :: join_with c_slash (map i_txt l0 ++ [lit]) ++ c_colon :: verb) =
  Some {| t_segs := map i_seg l0 ++ [relit lit]; t_verb := verb |}.
Proof.
  intros F0 LL E0 LB Z0 LV NC. set (w := lit ++ c_colon :: verb).
  assert (GW : good_lit w = true) by exact (glued_good lit verb LL LV).
  set (x' := (SLit w, w, [w]) : sitem).
  assert (Ix' : item_ok x') by (split; [exact (flat_ok (SLit w) GW) | left; split; reflexivity]).
  assert (F' : Forall item_ok (l0 ++ [x'])) by (apply Forall_app; split; [exact F0 | constructor; [exact Ix' | constructor]]).
  rewrite <- join_snoc, <- (app_nil_r (join_with _ _)). fold w.
  replace (join_with c_slash _) with (join_with c_slash (map i_txt (l0 ++ [x']))) by (rewrite map_app; reflexivity).
  rewrite (st_parse_items (l0 ++ [x']) [] F'); [| destruct l0; discriminate | | | left; reflexivity].
  - rewrite map_app. refine (eq_trans (st_template_lit (map i_seg l0) lit verb [eof] NC) _).
    destruct lit; [rewrite (E0 eq_refl)|]; reflexivity.
  - rewrite map_app. cbn [map]. rewrite (multi_only_last_snoc _ (i_seg x') (relit lit)). exact LB.
  - rewrite app_nil_r. apply nz_join; [reflexivity|]. rewrite map_app, forallb_app, Z0. cbn [map forallb i_txt x' fst snd].
    apply good_lit_iff in GW. rewrite (literal_nz w (proj1 (proj2 GW))). reflexivity.
Qed.

Theorem st_parse_complete t s : StrictLang t s -> st_parse s = Some t.
Proof.
  destruct t as [segs verb]. unfold StrictLang. cbn [t_segs t_verb].
  intros [LV [(-> & NC & FORM) | (LA & LB & txts & RS & TN & FORM)]].
  - destruct FORM as [-> | [-> ->]]; [|reflexivity].
    exact (st_parse_glued [] [] verb (Forall_nil _) eq_refl (fun _ => eq_refl) eq_refl eq_refl LV NC).
  - destruct (build_items segs txts LA RS) as (l & E1 & E2 & F).
    assert (NE : l <> []) by (intros ->; cbn in E2; congruence).
    pose proof (Rsegs_nz segs txts LA RS) as ZT. subst segs txts.
    assert (ZJ : nz (join_with c_slash (map i_txt l)) = true) by (apply nz_join; [reflexivity | exact ZT]).
    destruct FORM as [[-> VF] | (-> & -> & NCL)].
    + pose proof LV as Lw. rewrite <- lit_colon in Lw.
      destruct (is_var (last (map i_seg l) SWild)) eqn:V.
      * (* after a variable the verb is a token of its own *)
        rewrite (st_parse_items l (c_colon :: verb) F NE LB); [| rewrite nz_app, ZJ; exact (literal_nz _ Lw) |].
        2:{ right. split; [exact V|]. split; [exact (literal_nodelim _ 0%nat Lw (or_introl eq_refl)) | exact (not_slash_colon verb)]. }
        unfold st_template, sfx_tok. destruct (last (map i_seg l) SWild); try discriminate V.
        cbn [app]. rewrite (colon_not_eof verb), Lw. change (c_colon =? c_colon) with true. cbv iota. reflexivity.
      * (* after a flat segment the verb is glued to its token: split off the last item [x], whose text is a literal, and let
           st_parse_glued read "text:verb" as one literal cut at its last colon; [relit] of that text is [x]'s segment again *)
        destruct VF as [X|NC]; [discriminate|].
        destruct (exists_last NE) as (l0 & x & ->).
        apply Forall_app in F. destruct F as [F0 Fx]. pose proof (Forall_inv Fx) as Ix.
        rewrite map_app in V, LB, ZT |- *. cbn [map] in V, LB |- *. rewrite last_last in V. rewrite forallb_app in ZT. apply andb_true_iff in ZT.
        destruct (flat_item x Ix V) as (GF & ETX & _ & TX & _). rewrite map_app. cbn [map]. rewrite ETX in TX |- *. rewrite <- (relit_flat _ GF) in LB.
        rewrite (st_parse_glued l0 _ verb F0 (flat_literal _ GF) (fun E => match TX E with end) LB (proj1 ZT) LV NC), (relit_flat _ GF). reflexivity.
    + rewrite <- (app_nil_r (join_with _ _)), (st_parse_items l [] F NE LB); [| rewrite app_nil_r; exact ZJ | left; reflexivity].
      unfold st_template. destruct (last (map i_seg l) SWild) as [| |l1|p1 i1]; try reflexivity.
      cbn [tok_flat] in NCL. rewrite (no_colon_last_none l1 NCL). reflexivity.
Qed.

Theorem st_parse_exact s t : st_parse s = Some t <-> StrictLang t s.
Proof. split; [apply st_parse_sound | apply st_parse_complete]. Qed.

(* the statement has instances: a template in both spellings of its variable *)
Example st_lang_short : StrictLang {| t_segs := [SLit [97]; SVar [[105;100]] [SWild]]; t_verb := [103] |} [47;97;47;123;105;100;125;58;103].  (* /a/{id}:g *)
Proof. apply st_parse_sound. vm_compute. reflexivity. Qed.
Example st_lang_long : StrictLang {| t_segs := [SLit [97]; SVar [[105;100]] [SWild]]; t_verb := [103] |} [47;97;47;123;105;100;61;42;125;58;103].  (* /a/{id=*}:g *)
Proof. apply st_parse_sound. vm_compute. reflexivity. Qed.

(* Go's parser recurses without a bound; the model recurses on fuel and the entry point passes S (length tokens).
   Every recursive call is on a strictly shorter token list, so any larger fuel gives the same result: a None of the
   model is a refusal of the parser, never exhaustion. *)
Lemma st_fpr_len : forall fuel toks acc p rest, st_field_path_rest fuel toks acc = Some (p, rest) -> (length rest <= length toks)%nat.
Proof. intros fuel toks acc p rest H. destruct (fpr_inv st_ident _ _ _ _ _ H) as (more & _ & -> & _). rewrite app_length. lia. Qed.
Lemma st_fp_len toks p rest : st_field_path toks = Some (p, rest) -> (length rest < length toks)%nat.
Proof. intros H. apply st_field_path_spec in H. destruct H as (-> & NE & _). rewrite app_length. pose proof (toks_path_len p NE). lia. Qed.

Definition shrinks (inner : list bytes -> option (list seg * bool * list bytes)) : Prop :=
  forall x segs m r, inner x = Some (segs, m, r) -> (length r <= length x)%nat.

Lemma st_segment_len inner toks s m r : shrinks inner -> st_segment inner toks = Some (s, m, r) -> (length r < length toks)%nat.
Proof.
  intros SI H. apply st_segment_spec in H. destruct H as [t r _|p r2 _ _|p r2 segs m r4 _ _ IN];
    cbn [length]; rewrite ?app_length; cbn [length]; try lia.
  apply SI in IN. cbn [length] in IN. lia.
Qed.

Lemma st_segments_shrinks : forall f, shrinks (st_segments f).
Proof.
  induction f as [|f IH]; intros toks segs m r H; [discriminate H|].
  apply st_segments_spec in H. destruct H as [toks s ms r SG _|toks s r' more m r'' SG MORE]; apply (st_segment_len _ _ _ _ _ IH) in SG; [lia|].
  apply IH in MORE. cbn [length] in SG. lia.
Qed.

Lemma st_segment_ext inner1 inner2 toks : (forall x, (length x < length toks)%nat -> inner1 x = inner2 x) ->
  st_segment inner1 toks = st_segment inner2 toks.
Proof.
  intros EXT. unfold st_segment. destruct toks as [|t r0]; [reflexivity|].
  destruct (tok_is c_star t); [reflexivity|]. destruct (bytes_eqb t s_deep); [reflexivity|]. destruct (is_literal t); [reflexivity|].
  destruct (tok_is c_lbrace t); [|reflexivity].
  destruct (st_field_path r0) as [[path r1]|] eqn:FP; [|reflexivity]. apply st_fp_len in FP.
  destruct r1 as [|e r2]; [reflexivity|]. cbn [length] in FP.
  destruct (tok_is c_eq e); [|reflexivity]. rewrite (EXT r2); [reflexivity | cbn [length]; lia].
Qed.

Theorem fuel_irrelevant : forall f1 f2 toks, (length toks < f1)%nat -> (length toks < f2)%nat -> st_segments f1 toks = st_segments f2 toks.
Proof.
  induction f1 as [|f1 IH]; intros f2 toks L1 L2; [lia|]. destruct f2 as [|f2]; [lia|]. cbn [st_segments].
  rewrite (st_segment_ext (st_segments f1) (st_segments f2) toks) by (intros x Lx; apply IH; lia).
  destruct (st_segment (st_segments f2) toks) as [[[s ms] r0]|] eqn:SG; [|reflexivity].
  apply (st_segment_len _ _ _ _ _ (st_segments_shrinks f2)) in SG.
  destruct ms; [reflexivity|]. destruct r0 as [|t r']; [reflexivity|]. cbn [length] in SG.
  destruct (tok_is c_slash t); [|reflexivity]. rewrite (IH f2 r') by lia. reflexivity.
Qed.
