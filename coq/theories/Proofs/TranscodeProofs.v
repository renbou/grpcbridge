From GB Require Import Model.Transcode Proofs.Common Proofs.JsonProofs.
Open Scope Z_scope.

Lemma mget_mset_same n v m : mget n (mset n v m) = Some v.
Proof.
  induction m as [|[k x] r IH]; cbn [mset mget].
  - rewrite bytes_eqb_refl. reflexivity.
  - destruct (bytes_eqb k n) eqn:E; cbn [mget]; rewrite E; [reflexivity|exact IH].
Qed.
Lemma mget_mset_other n n' v m : n <> n' -> mget n' (mset n v m) = mget n' m.
Proof.
  intros Hne%bytes_eqb_neq. induction m as [|[k x] r IH]; cbn [mset mget]; [rewrite Hne; reflexivity|].
  destruct (bytes_eqb_spec k n) as [->|_]; cbn [mget]; [rewrite Hne; reflexivity|]. destruct (bytes_eqb k n'); [reflexivity|exact IH].
Qed.
Lemma mget_filter_key (p : bytes * mv -> bool) n m : (forall x, p (n, x) = true) -> mget n (filter p m) = mget n m.
Proof.
  intros Hp. induction m as [|[k x] r IH]; [reflexivity|]. cbn [filter mget].
  destruct (bytes_eqb k n) eqn:E.
  - apply bytes_eqb_eq in E as ->. rewrite Hp. cbn [mget]. rewrite bytes_eqb_refl. reflexivity.
  - destruct (p (k, x)); cbn [mget]; [rewrite E|]; exact IH.
Qed.

(* another member of fd's oneof *)
Definition sibling (fs : list fdesc) (fd : fdesc) (n : bytes) : bool :=
  negb (Z.eqb (fd_oneof fd) 0) &&
  existsb (fun g => Z.eqb (fd_oneof g) (fd_oneof fd) && bytes_eqb (fd_name g) n && negb (bytes_eqb (fd_name g) (fd_name fd))) fs.

Lemma mget_clear_oneof fs fd n m : sibling fs fd n = false -> mget n (clear_oneof fs fd m) = mget n m.
Proof.
  unfold sibling, clear_oneof. intros H. destruct (Z.eqb (fd_oneof fd) 0) eqn:E0; [reflexivity|]. cbn [negb andb] in H.
  apply mget_filter_key. intros x. cbn [fst]. rewrite H. reflexivity.
Qed.

(* reading a message at a field path (proto names) *)
Fixpoint lookup_path (m : msg) (p : list bytes) : option mv :=
  match p with
  | [] => None
  | n :: r => match r with
              | [] => mget n m
              | _ => match mget n m with Some (MM s) => lookup_path s r | _ => None end
              end
  end.
Lemma lookup_path_head m m' n r : mget n m' = mget n m -> lookup_path m' (n :: r) = lookup_path m (n :: r).
Proof. intros H. cbn [lookup_path]. rewrite H. reflexivity. Qed.
Lemma lookup_path_cons2 m n q r : lookup_path m (n :: q :: r) = match mget n m with Some (MM s) => lookup_path s (q :: r) | _ => None end.
Proof. reflexivity. Qed.
Lemma lookup_path_nil_msg r : lookup_path [] r = None.
Proof. destruct r as [|n [|n2 r]]; reflexivity. Qed.

(* one level of populateFieldValueFromPath, when it succeeds: a name the message does not have is passed over, the last name
   of the path sets its field, any other has to be a singular message field, inside which the rest is populated *)
Variant populated f sc mi (m : msg) values (m' : msg) name : list bytes -> Prop :=
  | pop_unknown rest : find_field name (fields_of sc mi) = None -> m' = m -> populated f sc mi m values m' name rest
  | pop_final fd : find_field name (fields_of sc mi) = Some fd -> set_final sc (fields_of sc mi) fd m values = Ok m' ->
      populated f sc mi m values m' name []
  | pop_inside fd idx r1 rest sub' : find_field name (fields_of sc mi) = Some fd -> fd_kind fd = FMsg idx -> fd_card fd = CSingle ->
      populate_go f sc idx (match mget (fd_name fd) m with Some (MM s) => s | _ => [] end) (r1 :: rest) values = Ok sub' ->
      m' = mset (fd_name fd) (MM sub') (clear_oneof (fields_of sc mi) fd m) -> populated f sc mi m values m' name (r1 :: rest).

Lemma populate_go_inv {f sc mi m name rest values m'} :
  populate_go (S f) sc mi m (name :: rest) values = Ok m' -> populated f sc mi m values m' name rest.
Proof.
  cbn [populate_go]. destruct (find_field name (fields_of sc mi)) as [fd|] eqn:F; [|intros [= <-]; constructor; auto].
  destruct rest as [|r1 rest]; [apply pop_final, F|].
  destruct (fd_kind fd) as [k|idx] eqn:K; [discriminate|]. destruct (fd_card fd) eqn:C; try discriminate.
  destruct (populate_go f sc idx _ (r1 :: rest) values) as [sub'|] eqn:P; [|discriminate]. intros [= <-]. eapply pop_inside; eauto.
Qed.

Lemma set_final_shape sc fs fd m values m' : set_final sc fs fd m values = Ok m' -> exists v, m' = mset (fd_name fd) v m.
Proof.
  unfold set_final. destruct (negb (Z.eqb (fd_oneof fd) 0) && _); [discriminate|].
  destruct (fd_card fd).
  - destruct values as [|vt [|? ?]]; try discriminate. destruct (parse_field sc (fd_kind fd) vt); [|discriminate]. intros E; injection E as <-. eexists; reflexivity.
  - destruct (collect _); [|discriminate]. intros E; injection E as <-. eexists; reflexivity.
  - destruct values as [|kt [|vt [|? ?]]]; try discriminate. destruct (parse_scalar kk kt); [|discriminate].
    destruct (parse_field sc (fd_kind fd) vt); [|discriminate]. intros E; injection E as <-. eexists; reflexivity.
Qed.

(* the population of `path` cannot reach the field path p: they part at some level, on different fields that are not
   members of one oneof *)
Fixpoint indep (fuel : nat) (sc : schema) (mi : nat) (path p : list bytes) : bool :=
  match fuel, path, p with
  | S f, name :: rest, n2 :: r2 =>
      match find_field name (fields_of sc mi) with
      | None => true
      | Some fd =>
          if bytes_eqb (fd_name fd) n2 then
            match rest, r2, fd_kind fd, fd_card fd with
            | _ :: _, _ :: _, FMsg idx, CSingle => indep f sc idx rest r2
            | _, _, _, _ => false
            end
          else negb (sibling (fields_of sc mi) fd n2)
      end
  | _, _, _ => true
  end.

Lemma populate_frame fuel : forall sc mi m path values m' p,
  populate_go fuel sc mi m path values = Ok m' -> indep fuel sc mi path p = true -> lookup_path m' p = lookup_path m p.
Proof.
  induction fuel as [|f IH]; intros sc mi m path values m' p H I; [discriminate|].
  destruct path as [|name rest]; [discriminate|]. destruct p as [|n2 r2]; [reflexivity|]. cbn [indep] in I.
  destruct (populate_go_inv H) as [rest F ->|fd F S|fd idx r1 rest sub' F K C P ->]; [reflexivity| |]; rewrite F in I.
  - destruct (bytes_eqb_spec (fd_name fd) n2) as [<-|Hne]; [discriminate|].
    apply lookup_path_head. destruct (set_final_shape _ _ _ _ _ _ S) as [v ->]. apply mget_mset_other, Hne.
  - rewrite K, C in I. destruct (bytes_eqb_spec (fd_name fd) n2) as [<-|Hne].
    + destruct r2 as [|q r2]; [discriminate|]. rewrite !lookup_path_cons2, mget_mset_same, (IH _ _ _ _ _ _ (q :: r2) P I).
      destruct (mget (fd_name fd) m) as [[v|s|l|l]|]; try apply lookup_path_nil_msg. reflexivity.
    + apply lookup_path_head. rewrite (mget_mset_other _ _ _ _ Hne). apply mget_clear_oneof, Bool.negb_true_iff, I.
Qed.

(* the field a path addresses (proto or JSON names), with its proto-name path *)
Fixpoint resolve (fuel : nat) (sc : schema) (mi : nat) (path : list bytes) : option (list bytes * fdesc) :=
  match fuel, path with
  | S f, name :: rest =>
      match find_field name (fields_of sc mi) with
      | None => None
      | Some fd =>
          match rest with
          | [] => Some ([fd_name fd], fd)
          | _ => match fd_kind fd, fd_card fd with
                 | FMsg idx, CSingle => match resolve f sc idx rest with Some (np, g) => Some (fd_name fd :: np, g) | None => None end
                 | _, _ => None
                 end
          end
      end
  | _, _ => None
  end.

Lemma populate_sets fuel : forall sc mi m path v m' np fd k,
  populate_go fuel sc mi m path [v] = Ok m' -> resolve fuel sc mi path = Some (np, fd) ->
  fd_card fd = CSingle -> fd_kind fd = FScalar k ->
  exists x, parse_scalar k v = Ok x /\ lookup_path m' np = Some (MS x).
Proof.
  induction fuel as [|f IH]; intros sc mi m path v m' np fd k H R C K; [discriminate|].
  destruct path as [|name rest]; [discriminate|]. cbn [resolve] in R.
  destruct (populate_go_inv H) as [rest F _|g F S|g idx r1 rest sub' F Kg Cg P ->]; rewrite F in R; [discriminate| |].
  - injection R as <- <-. unfold set_final in S. destruct (negb (Z.eqb (fd_oneof g) 0) && _); [discriminate|].
    rewrite C, K in S. cbn [parse_field] in S. destruct (parse_scalar k v) as [x|]; [|discriminate]. injection S as <-.
    exists x. split; [reflexivity|]. cbn [lookup_path]. apply mget_mset_same.
  - rewrite Kg, Cg in R. destruct (resolve f sc idx (r1 :: rest)) as [[np' g']|] eqn:R'; [|discriminate]. injection R as <- <-.
    destruct (IH _ _ _ _ _ _ _ _ _ P R' C K) as (x & Px & L). exists x. split; [exact Px|].
    destruct np' as [|a b]; [discriminate L|]. rewrite lookup_path_cons2, mget_mset_same. exact L.
Qed.

Lemma is_prefix_spec s p : is_prefix s p = true <-> exists t, p = s ++ t.
Proof.
  revert p; induction s as [|a s IH]; intros p; cbn [is_prefix].
  - split; [intros _; exists p; reflexivity|reflexivity].
  - destruct p as [|b p]; [split; [discriminate|intros [t E]; discriminate]|].
    rewrite Bool.andb_true_iff, bytes_eqb_eq, IH. split.
    + intros [-> [t ->]]. exists t. reflexivity.
    + intros [t E]. injection E as -> ->. split; [reflexivity|exists t; reflexivity].
Qed.
Lemma filter_spec seqs p : has_common_prefix seqs p = true <-> exists s t, In s seqs /\ p = s ++ t.
Proof.
  unfold has_common_prefix. rewrite existsb_exists. split.
  - intros (s & Hin & Hp). apply is_prefix_spec in Hp. destruct Hp as [t ->]. exists s, t. split; [exact Hin|reflexivity].
  - intros (s & t & Hin & ->). exists s. split; [exact Hin|]. apply is_prefix_spec. exists t. reflexivity.
Qed.

Definition query_path (sc : schema) (kv : bytes * list bytes) : list bytes :=
  normalize sc (split_dot (match bracket_split (fst kv) with Some (k, _) => k | None => fst kv end)).

Lemma query_step_eq sc seqs m kv : query_step sc seqs m kv =
  if has_common_prefix seqs (query_path sc kv) then Ok m
  else populate sc m (query_path sc kv) (match bracket_split (fst kv) with Some (_, sub) => sub :: snd kv | None => snd kv end).
Proof. unfold query_step, query_path. destruct (bracket_split (fst kv)) as [[k sub]|]; reflexivity. Qed.

(* a query parameter addressing something bound by the body or a path variable is ignored *)
Lemma bound_key_ignored sc seqs m kv : has_common_prefix seqs (query_path sc kv) = true -> query_step sc seqs m kv = Ok m.
Proof. intros H. rewrite query_step_eq, H. reflexivity. Qed.

Lemma populate_frame_top sc m path values m' p :
  populate sc m path values = Ok m' -> indep (length path) sc O path p = true -> lookup_path m' p = lookup_path m p.
Proof. unfold populate. destruct values; [discriminate|]. apply populate_frame. Qed.

Lemma fold_res_frame {A B C} (f : A -> B -> res A) (g : A -> C) l :
  (forall b a a', In b l -> f a b = Ok a' -> g a' = g a) -> forall a a', fold_res f l a = Ok a' -> g a' = g a.
Proof.
  induction l as [|b l IH]; intros S a a' H; cbn [fold_res] in H; [injection H as <-; reflexivity|].
  destruct (f a b) as [a1|] eqn:E; [|discriminate].
  rewrite (IH (fun b' a0 a0' I => S b' a0 a0' (or_intror I)) a1 a' H). exact (S b a a1 (or_introl eq_refl) E).
Qed.

(* the whole query phase leaves a field path alone unless some accepted parameter can reach it *)
Lemma query_phase_frame sc seqs : forall q m m' p,
  fold_res (query_step sc seqs) q m = Ok m' ->
  (forall kv, In kv q -> has_common_prefix seqs (query_path sc kv) = true \/ indep (length (query_path sc kv)) sc O (query_path sc kv) p = true) ->
  lookup_path m' p = lookup_path m p.
Proof.
  intros q m m' p H A. refine (fold_res_frame _ (fun m => lookup_path m p) q _ m m' H).
  intros kv a a' I S. rewrite query_step_eq in S.
  destruct (has_common_prefix seqs (query_path sc kv)) eqn:Fb; [injection S as <-; reflexivity|].
  destruct (A kv I) as [X|X]; [congruence | exact (populate_frame_top _ _ _ _ _ _ S X)].
Qed.

Lemma fold_res_app {A B} (f : A -> B -> res A) l1 l2 a :
  fold_res f (l1 ++ l2) a = match fold_res f l1 a with Ok a' => fold_res f l2 a' | Err => Err end.
Proof. revert a; induction l1 as [|b l1 IH]; intros a; cbn [fold_res app]; [reflexivity|]. destruct (f a b); [apply IH|reflexivity]. Qed.

Lemma params_phase_frame sc : forall l m m' np,
  fold_res (fun m p => populate sc m (split_dot (fst p)) [snd p]) l m = Ok m' ->
  (forall p, In p l -> indep (length (split_dot (fst p))) sc O (split_dot (fst p)) np = true) ->
  lookup_path m' np = lookup_path m np.
Proof.
  intros l m m' np H A. refine (fold_res_frame _ (fun m => lookup_path m np) l _ m m' H).
  intros p a a' I S. exact (populate_frame_top _ _ _ _ _ _ S (A p I)).
Qed.

(* path variables take priority: the value written by a path variable into a singular scalar field is what the target
   receives, whatever the body and the query say, as long as no LATER path variable and no accepted query parameter
   addresses the same place (the filter makes the query parameters for bound fields "not accepted") *)
Lemma path_param_wins sc bp l1 k v l2 q body m np fd kd :
  transcode sc bp (l1 ++ (k, v) :: l2) q body = Done m ->
  resolve (length (split_dot k)) sc O (split_dot k) = Some (np, fd) -> fd_card fd = CSingle -> fd_kind fd = FScalar kd ->
  (forall p, In p l2 -> indep (length (split_dot (fst p))) sc O (split_dot (fst p)) np = true) ->
  (forall kv, In kv q -> has_common_prefix (filter_seqs bp (l1 ++ (k, v) :: l2)) (query_path sc kv) = true
                        \/ indep (length (query_path sc kv)) sc O (query_path sc kv) np = true) ->
  exists x, parse_scalar kd v = Ok x /\ lookup_path m np = Some (MS x).
Proof.
  intros T R C K A2 AQ. unfold transcode in T.
  destruct (body_phase sc bp body) as [m0|]; [|discriminate].
  rewrite fold_res_app in T. destruct (fold_res _ l1 m0) as [ma|]; [|discriminate].
  cbn [fold_res fst snd] in T. destruct (populate sc ma _ _) as [mb|] eqn:S; [|discriminate].
  unfold populate in S.
  destruct (populate_sets _ _ _ _ _ _ _ _ _ _ S R C K) as (x & Px & L).
  exists x. split; [exact Px|].
  destruct (fold_res _ l2 mb) as [m1|] eqn:F2; [|discriminate].
  pose proof (params_phase_frame _ _ _ _ _ F2 A2) as E1.
  destruct (bytes_eqb bp s_star).
  - injection T as <-. rewrite E1. exact L.
  - destruct (fold_res (query_step sc _) q m1) as [m2|] eqn:FQ; [|discriminate]. injection T as <-.
    rewrite (query_phase_frame _ _ _ _ _ _ FQ AQ), E1. exact L.
Qed.

(* with body "*" the query is not looked at *)
Lemma star_ignores_query sc params q body : transcode sc s_star params q body = transcode sc s_star params [] body.
Proof.
  unfold transcode. destruct (body_phase sc s_star body) as [m0|]; [|reflexivity].
  destruct (fold_res _ params m0); [|reflexivity]. rewrite bytes_eqb_refl. reflexivity.
Qed.

(* values that do not parse yield InvalidArgument; Internal only for a body path that does not resolve *)
Lemma transcode_codes sc bp params q body c : transcode sc bp params q body = Fail c ->
  c = 3 \/ (c = 13 /\ bp <> [] /\ bp <> s_star /\ traverse (length (split_dot bp)) sc O (split_dot bp) = None).
Proof.
  unfold transcode. destruct (body_phase sc bp body) as [m0|c0] eqn:B.
  - destruct (fold_res _ params m0) as [m1|]; [|intros [= <-]; auto].
    destruct (bytes_eqb bp s_star); [discriminate|]. destruct (fold_res _ q m1); [discriminate | intros [= <-]; auto].
  - intros [= <-]. unfold body_phase in B. destruct bp as [|b0 bp']; [discriminate|]. cbn beta iota in B.
    destruct (bytes_eqb_spec (b0 :: bp') s_star) as [_|N].
    + destruct body as [j|]; [|discriminate]. destruct (decode_msg _ _ _ _); [discriminate|]. injection B as <-. auto.
    + destruct (traverse _ sc O (split_dot (b0 :: bp'))) as [[[chain mi] fd]|] eqn:T.
      * destruct (at_chain _ _ _); [discriminate|]. injection B as <-. auto.
      * injection B as <-. right. repeat split; [discriminate | exact N].
Qed.

Definition dec_text (s : bytes) (z : Z) : Prop :=
  exists ds, ds <> [] /\ forallb is_digit ds = true /\
    ((s = ds /\ z = digits_Z 0 ds) \/ (s = 43%N :: ds /\ z = digits_Z 0 ds) \/ (s = 45%N :: ds /\ z = - digits_Z 0 ds)).

(* what ParseInt and ParseUint have in common: a non-empty string of digits *)
Lemma digits_some {A} ds (v z : A) :
  match ds with [] => None | _ => if all_digits_b ds then Some v else None end = Some z ->
  ds <> [] /\ forallb is_digit ds = true /\ z = v.
Proof.
  destruct ds as [|c r]; [discriminate|]. unfold all_digits_b. destruct (forallb is_digit (c :: r)); [|discriminate].
  intros E; injection E as <-. split; [discriminate|]. split; reflexivity.
Qed.

Lemma parse_dec_signed_spec s z : parse_dec_signed s = Some z -> dec_text s z.
Proof.
  unfold parse_dec_signed, dec_text. destruct s as [|c r]; [discriminate|].
  destruct (N.eqb_spec c 45) as [->|_]; [|destruct (N.eqb_spec c 43) as [->|_]]; intros H.
  1-2: apply digits_some in H as (N0 & A & ->); exists r; auto 6.
  apply (digits_some (c :: r)) in H as (N0 & A & ->). exists (c :: r). auto 6.
Qed.

(* integers from text: exactly the decimal number written, and in the field's range: no truncation, no wrap-around *)
Lemma parse_int_exact k s v : is_int_kind k = true -> parse_int_kind k s = Ok v ->
  exists z, v = FInt z /\ in_range k z = true /\ dec_text s z.
Proof.
  intros K. unfold parse_int_kind.
  assert (D : forall z, match k with KUint32 | KUint64 => parse_dec_unsigned s | _ => parse_dec_signed s end = Some z -> dec_text s z).
  { intros z. destruct k; try discriminate K; try apply parse_dec_signed_spec;
      unfold parse_dec_unsigned; intros H; apply digits_some in H as (N0 & A & ->); exists s; auto 6. }
  destruct (match k with KUint32 | KUint64 => _ | _ => _ end) as [z|]; [|discriminate].
  destruct (in_range k z) eqn:R; [|discriminate]. intros E; injection E as <-. exists z. auto.
Qed.

(* enums from text: a defined value, by its name or by its exact decimal number *)
Lemma parse_enum_exact names s v : parse_enum names s = Ok v ->
  exists z, v = FEnum z /\ In z (map snd names) /\ (lookup_name s names = Some z \/ dec_text s z).
Proof.
  unfold parse_enum. destruct (lookup_name s names) as [z|] eqn:L.
  - intros E; injection E as <-. exists z. split; [reflexivity|]. split; [exact (in_map snd _ _ (aget_In _ _ _ L)) (* [lookup_name] is [aget] *)|left; reflexivity].
  - destruct (parse_dec_signed s) as [z|] eqn:P; [|discriminate].
    destruct ((-2147483648 <=? z) && (z <=? 2147483647) && existsb (fun e => Z.eqb (snd e) z) names) eqn:C; [|discriminate].
    apply andb_prop in C as [_ C]. apply existsb_exists in C as (e & Hin & <-%Z.eqb_eq). intros [= <-]. exists (snd e).
    split; [reflexivity|]. split; [exact (in_map snd _ _ Hin) | right; exact (parse_dec_signed_spec _ _ P)].
Qed.

Definition bz (l : list Z) : bytes := map Z.to_N l.
(* the enum parser before the repair: 4294967297 was accepted as the value 1 *)
Lemma parse_enum_old_refuted :
  let names := [(bz [79;78;69], 1)] in
  let s := bz [52;50;57;52;57;54;55;50;57;55] in
  parse_enum_old names s = Ok (FEnum 1) /\ parse_enum names s = Err.
Proof. vm_compute. split; reflexivity. Qed.

(* non-vacuity: a concrete request on a two-message schema *)
Definition ex_schema : schema :=
  [ {| md_wkt := 0; md_fields := [ {| fd_name := bz [105]; fd_json := bz [105]; fd_kind := FScalar KInt32; fd_card := CSingle; fd_oneof := 0; fd_pres := false |};
                                  {| fd_name := bz [110]; fd_json := bz [110]; fd_kind := FMsg 1; fd_card := CSingle; fd_oneof := 0; fd_pres := true |};
                                  {| fd_name := bz [115]; fd_json := bz [115]; fd_kind := FScalar KString; fd_card := CSingle; fd_oneof := 0; fd_pres := false |} ] |};
    {| md_wkt := 0; md_fields := [ {| fd_name := bz [120]; fd_json := bz [120]; fd_kind := FScalar KInt32; fd_card := CSingle; fd_oneof := 0; fd_pres := false |} ] |} ].
(* body "s" = "b", path n.x = 7, query i=3 & n.x=9 & s=q : i from the query, n.x from the path, s from the body *)
Example ex_precedence :
  transcode ex_schema (bz [115]) [(bz [110;46;120], bz [55])] [(bz [105], [bz [51]]); (bz [110;46;120], [bz [57]]); (bz [115], [bz [113]])] (Some (JStr (bz [98])))
  = Done [(bz [115], MS (FStr (bz [98]))); (bz [110], MM [(bz [120], MS (FInt 7))]); (bz [105], MS (FInt 3))].
Proof. vm_compute. reflexivity. Qed.
