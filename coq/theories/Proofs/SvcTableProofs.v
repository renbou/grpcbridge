(* The service table of routing.ServiceRouter (Model/Routers.v: update_routes / remove_starget / hand_over):
   representation invariant against the abstract spec "latest description of every live target", for every history. *)
From GB Require Import Model.Routers Proofs.Common Proofs.ListFacts Proofs.RoutersProofs.
From Coq Require Import Lia.

Local Notation mem k l := (existsb (bytes_eqb k) l).

Lemma s_load_delete k svc t : s_load k (s_delete svc t) = if bytes_eqb k svc then None else s_load k t.
Proof. exact (aget_adel k svc t). Qed.
Lemma s_load_store k svc v t : s_load k (s_store svc v t) = if bytes_eqb k svc then Some v else s_load k t.
Proof. exact (aget_aset k svc v t). Qed.
Local Notation del_all := (fold_left (fun t s => s_delete s t)).
Lemma s_load_del_all l t k : s_load k (del_all l t) = if mem k l then None else s_load k t.
Proof. exact (aget_fold_adel l t k). Qed.
Lemma c_get_delete m n c : c_get m (c_delete n c) = if bytes_eqb m n then [] else c_get m c.
Proof. exact (agetd_adel [] m n c). Qed.
Lemma c_get_append m n svc c : c_get m (c_append n svc c) = if bytes_eqb m n then c_get m c ++ [svc] else c_get m c.
Proof. exact (agetd_aapp m n svc c). Qed.

Definition owned (n k : bytes) (t : stable) : bool :=
  match s_load k t with Some r => bytes_eqb (sr_target r) n | None => false end.
(* [n] may claim [k]: unrouted, or already n's *)
Definition claimable (n k : bytes) (t : stable) : bool :=
  match s_load k t with Some r => bytes_eqb (sr_target r) n | None => true end.
Definition lists (k : bytes) (ss : list sdesc) : bool := existsb (fun s => bytes_eqb (s_name s) k) ss.

Definition mk_sr (n : bytes) (id : Z) (i : nat) : sroute := {| sr_target := n; sr_desc := id; sr_idx := i |}.

Lemma claim_step n id i s ss t cl :
  claim_services n id i (s :: ss) t cl =
  if claimable n (s_name s) t
  then claim_services n id (S i) ss (s_store (s_name s) (mk_sr n id i) t) (cl ++ [s_name s])
  else claim_services n id (S i) ss t cl.
Proof.
  unfold claimable. cbn [claim_services]. destruct (s_load (s_name s) t) as [old|]; [|reflexivity].
  destruct (bytes_eqb (sr_target old) n); reflexivity.
Qed.

(* a listed service that is claimable for n is stored at every position where it is listed; later positions overwrite
   earlier ones, so what remains is the LAST position of k *)
Fixpoint claim_idx (k : bytes) (i : nat) (ss : list sdesc) : option nat :=
  match ss with
  | [] => None
  | s :: r => match claim_idx k (S i) r with
              | Some j => Some j
              | None => if bytes_eqb (s_name s) k then Some i else None
              end
  end.

Lemma lists_cons k s ss : lists k (s :: ss) = bytes_eqb (s_name s) k || lists k ss.
Proof. reflexivity. Qed.

Lemma claimable_store n id i k k' t : claimable n k (s_store k' (mk_sr n id i) t) = if bytes_eqb k k' then true else claimable n k t.
Proof. unfold claimable. rewrite s_load_store. destruct (bytes_eqb k k'); [apply bytes_eqb_refl | reflexivity]. Qed.

Lemma claim_load n id : forall ss i t cl k,
  s_load k (fst (claim_services n id i ss t cl)) =
  if claimable n k t then match claim_idx k i ss with Some j => Some (mk_sr n id j) | None => s_load k t end else s_load k t.
Proof.
  induction ss as [|s ss IH]; intros i t cl k.
  - cbn [claim_services claim_idx fst]. destruct (claimable n k t); reflexivity.
  - rewrite claim_step. cbn [claim_idx]. rewrite (bytes_eqb_sym (s_name s) k).
    destruct (claimable n (s_name s) t) eqn:F; rewrite IH.
    + rewrite claimable_store, s_load_store. destruct (bytes_eqb_spec k (s_name s)) as [->|].
      * rewrite F. destruct (claim_idx _ _ _); reflexivity.
      * destruct (claimable n k t); [|reflexivity]. destruct (claim_idx _ _ _); reflexivity.
    + destruct (bytes_eqb_spec k (s_name s)) as [->|].
      * rewrite F. reflexivity.
      * destruct (claim_idx _ _ _); reflexivity.
Qed.

Lemma claim_mem n id : forall ss i t cl k,
  mem k (snd (claim_services n id i ss t cl)) = mem k cl || lists k ss && claimable n k t.
Proof.
  induction ss as [|s ss IH]; intros i t cl k.
  - cbn [claim_services snd lists existsb andb]. rewrite orb_false_r. reflexivity.
  - rewrite claim_step, lists_cons, (bytes_eqb_sym (s_name s) k).
    destruct (claimable n (s_name s) t) eqn:F; rewrite IH.
    + rewrite claimable_store, existsb_app. cbn [existsb]. rewrite orb_false_r. destruct (bytes_eqb_spec k (s_name s)) as [->|].
      * rewrite F. destruct (mem _ cl), (lists _ ss); reflexivity.
      * destruct (mem k cl), (lists k ss), (claimable n k t); reflexivity.
    + destruct (bytes_eqb_spec k (s_name s)) as [->|]; [|reflexivity]. rewrite F, !andb_false_r. reflexivity.
Qed.

Lemma claim_idx_lists k : forall ss i, lists k ss = match claim_idx k i ss with Some _ => true | None => false end.
Proof.
  induction ss as [|s ss IH]; intros i; [reflexivity|]. rewrite lists_cons, (IH (S i)). cbn [claim_idx].
  destruct (claim_idx k (S i) ss); [apply orb_true_r|]. rewrite orb_false_r. destruct (bytes_eqb (s_name s) k); reflexivity.
Qed.

Lemma claim_owned n id ss i t cl m k :
  owned m k (fst (claim_services n id i ss t cl)) = if lists k ss && claimable n k t then bytes_eqb n m else owned m k t.
Proof. unfold owned. rewrite claim_load, (claim_idx_lists k ss i). destruct (claimable n k t), (claim_idx k i ss); reflexivity. Qed.

Lemma claim_idx_none k ss i : claim_idx k i ss = None <-> lists k ss = false.
Proof. rewrite (claim_idx_lists k ss i). destruct (claim_idx k i ss); split; congruence. Qed.

Lemma claim_idx_some k : forall ss i j, claim_idx k i ss = Some j ->
  exists j' s, j = (i + j')%nat /\ nth_error ss j' = Some s /\ s_name s = k.
Proof.
  induction ss as [|s ss IH]; intros i j H; [discriminate|]. cbn [claim_idx] in H.
  destruct (claim_idx k (S i) ss) as [j0|] eqn:C.
  - injection H as ->. destruct (IH _ _ C) as (j' & s' & -> & H). exists (S j'), s'. split; [lia | exact H].
  - destruct (bytes_eqb_spec (s_name s) k) as [E|_]; [|discriminate]. injection H as <-. exists 0%nat, s. split; [lia | auto].
Qed.

Definition ho_f (by_ : bytes) (ds : sdescs) : stable * claims -> bytes -> stable * claims :=
  fun tc svc =>
      match first_lister svc (sd_delete by_ ds) with
      | Some (n, d, i) =>
          match s_load svc (fst tc) with
          | None => (s_store svc (mk_sr n (d_id d) i) (fst tc), c_append n svc (snd tc))
          | Some _ => tc
          end
      | None => tc
      end.

Lemma hand_over_eq released by_ t c ds : hand_over released by_ t c ds = fold_left (ho_f by_ ds) released (t, c).
Proof. reflexivity. Qed.

Definition ho_new (by_ : bytes) (ds : sdescs) (k : bytes) : option sroute :=
  match first_lister k (sd_delete by_ ds) with
  | Some (m, dm, i) => Some (mk_sr m (d_id dm) i)
  | None => None
  end.

Lemma ho_f_load by_ ds tc svc k :
  s_load k (fst (ho_f by_ ds tc svc)) =
  if bytes_eqb k svc then match s_load k (fst tc) with Some r => Some r | None => ho_new by_ ds k end
  else s_load k (fst tc).
Proof.
  unfold ho_f, ho_new. destruct (bytes_eqb_spec k svc) as [->|N];
    destruct (first_lister svc (sd_delete by_ ds)) as [[[m dm] i]|], (s_load svc (fst tc)) eqn:L; cbn [fst];
    rewrite ?s_load_store, ?bytes_eqb_refl, ?(proj2 (bytes_eqb_neq k svc) N), ?L; reflexivity.
Qed.

Lemma ho_load by_ ds : forall released tc k,
  s_load k (fst (fold_left (ho_f by_ ds) released tc)) =
  if mem k released then match s_load k (fst tc) with Some r => Some r | None => ho_new by_ ds k end
  else s_load k (fst tc).
Proof.
  induction released as [|svc rest IH]; intros tc k; [reflexivity|].
  cbn [fold_left]. rewrite IH, ho_f_load. cbn [existsb].
  destruct (bytes_eqb k svc); cbn [orb].
  - destruct (mem k rest); destruct (s_load k (fst tc)); try reflexivity. destruct (ho_new by_ ds k); reflexivity.
  - reflexivity.
Qed.

Lemma svc_index_some svc : forall ss i j, svc_index svc i ss = Some j ->
  exists j' s, j = (i + j')%nat /\ nth_error ss j' = Some s /\ s_name s = svc.
Proof.
  induction ss as [|s ss IH]; intros i j H; [discriminate|]. cbn [svc_index] in H.
  destruct (bytes_eqb_spec (s_name s) svc) as [E|_].
  - injection H as <-. exists 0%nat, s. split; [lia | auto].
  - destruct (IH _ _ H) as (j' & s' & -> & H'). exists (S j'), s'. split; [lia | exact H'].
Qed.

Lemma svc_index_none svc : forall ss i, svc_index svc i ss = None <-> lists svc ss = false.
Proof.
  induction ss as [|s ss IH]; intros i; [split; reflexivity|]. unfold lists. cbn [svc_index existsb].
  destruct (bytes_eqb (s_name s) svc); cbn [orb]; [split; discriminate | apply IH].
Qed.

Lemma first_lister_some svc : forall cands m dm i, first_lister svc cands = Some (m, dm, i) ->
  In (m, dm) cands /\ svc_index svc 0 (d_services dm) = Some i.
Proof.
  induction cands as [|[n d] cands IH]; intros m dm i H; [discriminate|]. cbn [first_lister] in H.
  destruct (svc_index svc 0 (d_services d)) eqn:E.
  - injection H as <- <- <-. split; [left; reflexivity | exact E].
  - destruct (IH _ _ _ H) as [I S']. split; [right; exact I | exact S'].
Qed.

Lemma first_lister_none svc : forall cands, first_lister svc cands = None ->
  forall m dm, In (m, dm) cands -> lists svc (d_services dm) = false.
Proof.
  induction cands as [|[n d] cands IH]; intros H m dm I; [destruct I|]. cbn [first_lister] in H.
  destruct (svc_index svc 0 (d_services d)) eqn:E; [discriminate|].
  destruct I as [I|I]; [injection I as <- <-; eapply svc_index_none; exact E | eapply IH; eauto].
Qed.

Lemma In_sd_delete m dm n ds : In (m, dm) (sd_delete n ds) <-> In (m, dm) ds /\ m <> n.
Proof. exact (In_adel m dm n ds). Qed.

Lemma In_sd_insert x kv l : In x (sd_insert kv l) <-> x = kv \/ In x l.
Proof. exact (In_ains x kv l). Qed.

Lemma In_sd_set m dm n d ds : In (m, dm) (sd_set n d ds) <-> (m = n /\ dm = d) \/ (In (m, dm) ds /\ m <> n).
Proof.
  unfold sd_set. rewrite In_sd_insert, In_sd_delete.
  split; (intros [H|H]; [left | right; exact H]); [injection H as -> -> | destruct H as [-> ->]]; auto.
Qed.

Definition tbl (st : sstate3) : stable := fst (fst st).
Definition clm (st : sstate3) : claims := snd (fst st).
Definition dsc (st : sstate3) : sdescs := snd st.

(* sound: every routed service points at a LIVE target, at its LATEST description, at a position where that
          description lists exactly this service;
   complete: every service listed by the latest description of some live target is routed;
   claims: the per-target claim lists are exactly the table's ownership relation;
   descs: the recorded listings are exactly the latest descriptions *)
Definition SInv (lt : latest) (st : sstate3) : Prop :=
  (forall k r, s_load k (tbl st) = Some r -> exists d s,
      lget (sr_target r) lt = Some d /\ sr_desc r = d_id d /\ nth_error (d_services d) (sr_idx r) = Some s /\ s_name s = k) /\
  (forall m dm k, lget m lt = Some dm -> lists k (d_services dm) = true -> s_load k (tbl st) <> None) /\
  (forall m k, In k (c_get m (clm st)) <-> owned m k (tbl st) = true) /\
  (forall m dm, In (m, dm) (dsc st) <-> lget m lt = Some dm).

Lemma SInv_init : SInv [] ([], [], []).
Proof.
  unfold SInv, tbl, clm, dsc, owned. cbn. split; [discriminate|]. split; [discriminate|].
  split; [split; [intros [] | discriminate] | split; [intros [] | discriminate]].
Qed.

Lemma nth_lists d k j s : nth_error (d_services d) j = Some s -> s_name s = k -> lists_svc d k = true.
Proof.
  intros H E. apply existsb_exists. exists s. split; [eapply nth_error_In; eauto | subst; apply bytes_eqb_refl].
Qed.

Lemma ho_new_some n ds k r : ho_new n ds k = Some r ->
  exists dm s, In (sr_target r, dm) ds /\ sr_target r <> n /\ sr_desc r = d_id dm /\
               nth_error (d_services dm) (sr_idx r) = Some s /\ s_name s = k.
Proof.
  unfold ho_new. destruct (first_lister k (sd_delete n ds)) as [[[m dm] i]|] eqn:FL; [|discriminate].
  intros H. injection H as <-. cbn [sr_target sr_desc sr_idx mk_sr]. apply first_lister_some in FL as [I Si].
  apply In_sd_delete in I as [I N]. apply svc_index_some in Si as (j & s & -> & Hn & Hs). exists dm, s. auto.
Qed.

Lemma ho_new_not_self by_ dss k ro : ho_new by_ dss k = Some ro -> sr_target ro <> by_.
Proof. intros H. destruct (ho_new_some _ _ _ _ H) as (_ & _ & _ & N & _). exact N. Qed.

Lemma ho_new_none n ds k m dm : ho_new n ds k = None -> In (m, dm) ds -> m <> n -> lists k (d_services dm) = false.
Proof.
  unfold ho_new. destruct (first_lister k (sd_delete n ds)) as [[[m' dm'] i']|] eqn:FL; [discriminate|].
  intros _ I N. apply (first_lister_none _ _ FL m dm). apply In_sd_delete. auto.
Qed.

Lemma ho_del_load by_ ds rel t c k :
  s_load k (fst (fold_left (ho_f by_ ds) rel (del_all rel t, c))) = if mem k rel then ho_new by_ ds k else s_load k t.
Proof. rewrite ho_load. cbn [fst]. rewrite s_load_del_all. destruct (mem k rel); reflexivity. Qed.

(* the claim lists: "claimed by m = owned by m" survives every step of the hand-over, so it holds at the end if the
   accumulator starts as ownership in t1 minus the released services *)
Definition claims_ok (tc : stable * claims) : Prop := forall m k, In k (c_get m (snd tc)) <-> owned m k (fst tc) = true.

Lemma ho_f_claims by_ ds tc svc : claims_ok tc -> claims_ok (ho_f by_ ds tc svc).
Proof.
  unfold claims_ok. intros P. unfold ho_f. destruct (first_lister svc (sd_delete by_ ds)) as [[[n dm] i]|]; [|exact P].
  destruct (s_load svc (fst tc)) eqn:L; [exact P|]. intros m k. cbn [fst snd]. unfold owned. rewrite c_get_append, s_load_store.
  destruct (bytes_eqb_spec k svc) as [->|N].
  - (* the service handed over: claimed and owned by n, and by nobody else, as it was not routed *)
    cbn [sr_target mk_sr]. rewrite (bytes_eqb_sym n m). destruct (bytes_eqb m n).
    + rewrite in_app_iff. cbn [In]. split; auto.
    + rewrite P. unfold owned. rewrite L. reflexivity.
  - fold (owned m k (fst tc)). rewrite <- P. destruct (bytes_eqb m n); [|reflexivity].
    rewrite in_app_iff. cbn [In]. split; [intros [I|[E|[]]]; [exact I | congruence] | auto].
Qed.

Lemma ho_del_claims by_ ds rel t1 c0 :
  (forall m k, mem k (c_get m c0) = owned m k t1 && negb (mem k rel)) ->
  claims_ok (fold_left (ho_f by_ ds) rel (del_all rel t1, c0)).
Proof.
  intros H0. apply fold_left_inv_In; [intros; apply ho_f_claims; assumption|].
  intros m k. cbn [fst snd]. rewrite <- mem_In, H0. unfold owned. rewrite s_load_del_all.
  destruct (mem k rel); [rewrite andb_false_r; split; discriminate | rewrite andb_true_r; reflexivity].
Qed.

Lemma owned_other m n k t : m <> n -> owned m k t = true -> owned n k t = false /\ claimable n k t = false.
Proof.
  unfold owned, claimable. destruct (s_load k t) as [ro|]; [|discriminate]. intros N O. apply bytes_eqb_eq in O. rewrite O.
  apply bytes_eqb_neq in N. auto.
Qed.

(* The table after updateRoutes n (listing ss under description id) or, with ss = [], after removeTarget n: routes of other
   targets stay; what n lists and may have it gets; what n held and no longer lists goes to the first other lister *)
Definition reroute (n : bytes) (id : Z) (ss : list sdesc) (ds' : sdescs) (t : stable) (k : bytes) : option sroute :=
  if claimable n k t
  then match claim_idx k 0 ss with
       | Some j => Some (mk_sr n id j)
       | None => if owned n k t then ho_new n ds' k else None
       end
  else s_load k t.

Lemma reroute_keeps n id ss ds' t k ro : s_load k t = Some ro -> sr_target ro <> n -> reroute n id ss ds' t k = Some ro.
Proof. intros L N. unfold reroute, claimable. rewrite L, (proj2 (bytes_eqb_neq _ _) N). reflexivity. Qed.

Lemma mem_owned st : claims_ok (fst st) -> forall m k, mem k (c_get m (clm st)) = owned m k (tbl st).
Proof. intros Hc m k. apply eq_true_iff_eq. rewrite mem_In. apply Hc. Qed.

Section Update.
  Variables (n : bytes) (d : desc) (st : sstate3).
  Let r := claim_services n (d_id d) 0 (d_services d) (tbl st) [].
  Let outdated := filter (fun s => negb (mem s (snd r))) (c_get n (clm st)).
  Let ds' := sd_set n d (dsc st).
  Let h := fold_left (ho_f n ds') outdated (del_all outdated (fst r), (n, snd r) :: c_delete n (clm st)).

  Lemma update_routes_eq : update_routes n d st = (fst h, snd h, ds').
  Proof.
    unfold h, outdated, ds', r. destruct st as [[t c] ds]. unfold update_routes, tbl, clm, dsc. cbn [fst snd].
    destruct (claim_services n (d_id d) 0 (d_services d) t []) as [t1 claimed]. cbn [fst snd].
    rewrite hand_over_eq.
    destruct (fold_left (ho_f n (sd_set n d ds)) _ _) as [t3 c3]. reflexivity.
  Qed.

  Hypothesis Hc : claims_ok (fst st).

  Lemma update_load k : s_load k (tbl (update_routes n d st)) = reroute n (d_id d) (d_services d) ds' (tbl st) k.
  Proof using Hc.
    rewrite update_routes_eq. unfold tbl at 1, h, outdated, r. cbn [fst].
    rewrite ho_del_load, mem_filter, (mem_owned st Hc), claim_mem, claim_load, (claim_idx_lists k (d_services d) 0).
    unfold reroute, owned, claimable.
    destruct (s_load k (tbl st)) as [ro|]; [destruct (bytes_eqb (sr_target ro) n)|]; destruct (claim_idx k 0 (d_services d)); reflexivity.
  Qed.

  Lemma update_claims k : claimable n k (tbl st) = true -> lists k (d_services d) = true ->
    exists j s, s_load k (tbl (update_routes n d st)) = Some (mk_sr n (d_id d) j) /\
                nth_error (d_services d) j = Some s /\ s_name s = k.
  Proof using Hc.
    intros F L. rewrite update_load. unfold reroute. rewrite F.
    destruct (claim_idx k 0 (d_services d)) as [j|] eqn:C; [|apply claim_idx_none in C; congruence].
    destruct (claim_idx_some _ _ _ _ C) as (j' & s & -> & Hn & Hs). eauto.
  Qed.

  Lemma update_claim_lists : claims_ok (fst (update_routes n d st)).
  Proof using Hc.
    (* by ho_del_claims it is enough that the claim lists handed to the hand-over are ownership after the claim phase minus
       the outdated services: n's list is what it just claimed, another target keeps what it owned (n claims nothing of it) *)
    rewrite update_routes_eq. unfold h. cbn [fst]. rewrite <- surjective_pairing. apply ho_del_claims. intros m k.
    unfold outdated, r. cbn [c_get].
    rewrite c_get_delete, mem_filter, (mem_owned st Hc), claim_mem, claim_owned, (bytes_eqb_sym n m).
    destruct (bytes_eqb_spec m n) as [->|Nm].
    - rewrite claim_mem. destruct (lists k (d_services d)), (claimable n k (tbl st)), (owned n k (tbl st)); reflexivity.
    - rewrite (mem_owned st Hc). destruct (owned m k (tbl st)) eqn:O.
      + destruct (owned_other m n k (tbl st) Nm O) as [-> ->]. rewrite andb_false_r. reflexivity.
      + destruct (lists k (d_services d) && claimable n k (tbl st)); reflexivity.
  Qed.
End Update.

Section Remove.
  Variables (n : bytes) (st : sstate3).
  Let released := c_get n (clm st).
  Let ds' := sd_delete n (dsc st).
  Let h := fold_left (ho_f n ds') released (del_all released (tbl st), c_delete n (clm st)).

  Lemma remove_starget_eq : remove_starget n st = (fst h, snd h, ds').
  Proof.
    unfold h, ds', released. destruct st as [[t c] ds]. unfold remove_starget, tbl, clm, dsc. cbn [fst snd]. rewrite hand_over_eq.
    destruct (fold_left (ho_f n (sd_delete n ds)) _ _) as [t3 c3]. reflexivity.
  Qed.

  Hypothesis Hc : claims_ok (fst st).

  Lemma remove_load k : s_load k (tbl (remove_starget n st)) = reroute n 0%Z [] ds' (tbl st) k.
  Proof using Hc.
    rewrite remove_starget_eq. unfold tbl at 1, h, released. cbn [fst]. rewrite ho_del_load, (mem_owned st Hc).
    unfold reroute, owned, claimable. cbn [claim_idx].
    destruct (s_load k (tbl st)) as [ro|]; [destruct (bytes_eqb (sr_target ro) n)|]; reflexivity.
  Qed.

  Lemma remove_claim_lists : claims_ok (fst (remove_starget n st)).
  Proof using Hc.
    (* as for the update: n's list is deleted, everything it owned is released, the others keep theirs *)
    rewrite remove_starget_eq. unfold h, released. cbn [fst]. rewrite <- surjective_pairing. apply ho_del_claims. intros m k.
    rewrite c_get_delete, (mem_owned st Hc). destruct (bytes_eqb_spec m n) as [->|Nm].
    - destruct (owned n k (tbl st)); reflexivity.
    - rewrite (mem_owned st Hc). destruct (owned m k (tbl st)) eqn:O; [|reflexivity]. destruct (owned_other m n k (tbl st) Nm O) as [-> _]. reflexivity.
  Qed.
End Remove.

(* [od]: the new latest description of target [n] (None: the target went away) *)
Lemma SInv_reroute lt lt' st st' n od :
  (forall m, lget m lt' = if bytes_eqb m n then od else lget m lt) ->
  (forall m dm, In (m, dm) (dsc st') <-> lget m lt' = Some dm) ->
  (forall k, s_load k (tbl st') = reroute n (d_id (od_desc od)) (d_services (od_desc od)) (dsc st') (tbl st) k) ->
  claims_ok (fst st') ->
  SInv lt st -> SInv lt' st'.
Proof.
  intros Hlt Hds Hload Hclm (Snd & Cmp & _ & _).
  split; [|split; [|split; [exact Hclm | exact Hds]]].
  - (* sound *)
    intros k r L. rewrite Hload in L. unfold reroute in L. destruct (claimable n k (tbl st)) eqn:F.
    + destruct (claim_idx k 0 (d_services (od_desc od))) as [j|] eqn:C.
      * injection L as <-. cbn [sr_target sr_desc sr_idx mk_sr]. rewrite Hlt, bytes_eqb_refl.
        destruct od as [d|]; [|discriminate]. apply claim_idx_some in C as (j' & s & -> & Hn & Hs). exists d, s. auto.
      * destruct (owned n k (tbl st)); [|discriminate].
        destruct (ho_new_some _ _ _ _ L) as (dm & s & I & _ & H). apply Hds in I. exists dm, s. auto.
    + destruct (Snd k r L) as (d0 & s & H1 & H). exists d0, s. rewrite Hlt. unfold claimable in F. rewrite L in F. rewrite F. auto.
  - (* complete *)
    intros m dm k Lm Ls. rewrite Hload. unfold reroute. destruct (claimable n k (tbl st)) eqn:F.
    + destruct (claim_idx k 0 (d_services (od_desc od))) eqn:C; [discriminate|]. apply claim_idx_none in C.
      assert (Lm' := Lm). rewrite Hlt in Lm. destruct (bytes_eqb_spec m n) as [->|Em].
      * rewrite Lm in C. cbn [od_desc] in C. rewrite C in Ls. discriminate Ls.
      * destruct (owned n k (tbl st)) eqn:O.
        -- intros H. apply Hds in Lm'. rewrite (ho_new_none _ _ _ _ _ H Lm' Em) in Ls. discriminate Ls.
        -- intros _. apply (Cmp m dm k Lm Ls). unfold claimable in F. unfold owned in O. destruct (s_load k (tbl st)); [congruence | reflexivity].
    + unfold claimable in F. destruct (s_load k (tbl st)); [discriminate | discriminate F].
Qed.

Lemma update_dsc n d st : dsc (update_routes n d st) = sd_set n d (dsc st).
Proof. rewrite update_routes_eq. reflexivity. Qed.
Lemma remove_dsc n st : dsc (remove_starget n st) = sd_delete n (dsc st).
Proof. rewrite remove_starget_eq. reflexivity. Qed.

Lemma SInv_update lt st n d : SInv lt st -> SInv (lset n d lt) (update_routes n d st).
Proof.
  intros H. pose proof H as (_ & _ & Hc & Dsc).
  apply (SInv_reroute lt _ st _ n (Some d)); [| | | | exact H].
  - intros m. apply lget_lset.
  - intros m dm. rewrite update_dsc, In_sd_set, lget_lset, Dsc. destruct (bytes_eqb_spec m n); intuition congruence.
  - rewrite update_dsc. apply update_load. exact Hc.
  - apply update_claim_lists. exact Hc.
Qed.

Lemma SInv_remove lt st n : SInv lt st -> SInv (ldel n lt) (remove_starget n st).
Proof.
  intros H. pose proof H as (_ & _ & Hc & Dsc).
  apply (SInv_reroute lt _ st _ n None); [| | | | exact H].
  - intros m. apply lget_ldel.
  - intros m dm. rewrite remove_dsc, In_sd_delete, lget_ldel, Dsc. destruct (bytes_eqb_spec m n); intuition congruence.
  - rewrite remove_dsc. apply remove_load. exact Hc.
  - apply remove_claim_lists. exact Hc.
Qed.

Section Hist.
  Variable valid : bytes -> bool.

  Theorem service_inv ops : SInv (snd (run_spec ops)) (st_st (run_ops valid ops)).
  Proof.
    apply (history_ind valid (fun lt _ st => SInv lt st)); [intros; apply SInv_update; assumption | intros; apply SInv_remove; assumption | reflexivity | apply SInv_init].
  Qed.

  (* C06, service router: after ANY history a routed service points at a live target's LATEST description, at a
     position where that description lists the service *)
  Theorem service_sound ops svc r : probe_grpc (run_ops valid ops) svc = Some r ->
    exists d s, lget (sr_target r) (snd (run_spec ops)) = Some d /\ sr_desc r = d_id d /\
                nth_error (d_services d) (sr_idx r) = Some s /\ s_name s = svc.
  Proof. destruct (service_inv ops) as (S & _). apply S. Qed.

  (* ... every service listed by the latest description of some live target is routed *)
  Theorem service_complete ops m dm svc : lget m (snd (run_spec ops)) = Some dm -> lists_svc dm svc = true ->
    probe_grpc (run_ops valid ops) svc <> None.
  Proof. destruct (service_inv ops) as (_ & C & _). apply C. Qed.

  (* ... a service listed by exactly one live target is routed to it, with its latest description *)
  Theorem service_sole ops n d svc : lget n (snd (run_spec ops)) = Some d -> lists_svc d svc = true ->
    (forall n' d', n' <> n -> lget n' (snd (run_spec ops)) = Some d' -> lists_svc d' svc = false) ->
    exists r s, probe_grpc (run_ops valid ops) svc = Some r /\ sr_target r = n /\ sr_desc r = d_id d /\
                nth_error (d_services d) (sr_idx r) = Some s /\ s_name s = svc.
  Proof.
    intros L Ls U. destruct (probe_grpc (run_ops valid ops) svc) as [r|] eqn:P.
    - destruct (service_sound ops svc r P) as (d0 & s & H1 & H2 & H3 & H4).
      destruct (bytes_eqb_spec (sr_target r) n) as [E|E].
      + rewrite E in H1. assert (d0 = d) by congruence. subst d0. exists r, s. auto.
      + pose proof (U _ _ E H1) as H. pose proof (nth_lists _ _ _ _ H3 H4) as H'. congruence.
    - exfalso. exact (service_complete ops n d svc L Ls P).
  Qed.

  (* ... a service no live target lists is not routed *)
  Theorem service_none ops svc : (forall n d, lget n (snd (run_spec ops)) = Some d -> lists_svc d svc = false) ->
    probe_grpc (run_ops valid ops) svc = None.
  Proof.
    intros U. destruct (probe_grpc (run_ops valid ops) svc) as [r|] eqn:P; [|reflexivity].
    destruct (service_sound ops svc r P) as (d0 & s & H1 & H2 & H3 & H4).
    pose proof (U _ _ H1) as H. pose proof (nth_lists _ _ _ _ H3 H4) as H'. congruence.
  Qed.

  (* C14: the earlier claimant keeps the service - no operation of ANOTHER target changes the route *)
  Definition touches (o : op) (n : bytes) : Prop :=
    match o with OWatch _ => False | OUpdate m _ | OClose m => m = n end.

  Theorem earlier_claimant_keeps ops o svc r : probe_grpc (run_ops valid ops) svc = Some r ->
    ~ touches o (sr_target r) -> probe_grpc (fst (step valid (run_ops valid ops) o)) svc = Some r.
  Proof.
    intros P T. destruct (service_inv ops) as (_ & _ & Clm & _).
    destruct o as [n|n d|n]; cbn [step touches] in T |- *; destruct (watched n (run_ops valid ops)); try exact P.
    - eapply eq_trans; [apply (update_load n d _ Clm) | apply reroute_keeps; [exact P | congruence]].
    - eapply eq_trans; [apply (remove_load n _ Clm) | apply reroute_keeps; [exact P | congruence]].
  Qed.

  (* ... and the owner keeps it across its own updates for as long as it lists the service; the route is refreshed to the
     new description *)
  Theorem owner_relists ops n d svc r : probe_grpc (run_ops valid ops) svc = Some r -> sr_target r = n ->
    lists_svc d svc = true -> snd (step valid (run_ops valid ops) (OUpdate n d)) = 1%Z ->
    exists r' s, probe_grpc (fst (step valid (run_ops valid ops) (OUpdate n d))) svc = Some r' /\
                 sr_target r' = n /\ sr_desc r' = d_id d /\ nth_error (d_services d) (sr_idx r') = Some s /\ s_name s = svc.
  Proof.
    intros P T Ls A. destruct (service_inv ops) as (_ & _ & Clm & _).
    cbn [step] in *. destruct (watched n (run_ops valid ops)); [|discriminate].
    assert (F : claimable n svc (tbl (st_st (run_ops valid ops))) = true) by (unfold claimable, tbl; unfold probe_grpc in P; rewrite P, T; apply bytes_eqb_refl).
    destruct (update_claims n d _ Clm svc F Ls) as (j & s & H1 & H2 & H3).
    exists (mk_sr n (d_id d) j), s. auto.
  Qed.

End Hist.

(* the premises of the theorems above are met by concrete histories: two targets claim the same service; the earlier
   claimant is routed; when it goes away the service is handed to the other one, with that one's latest description *)
Definition ex_a : bytes := [97]%N.
Definition ex_b : bytes := [98]%N.
Definition ex_svc : bytes := [115]%N.
Definition ex_desc (id : Z) : desc := {| d_id := id; d_services := [{| s_name := ex_svc; s_methods := [] |}] |}.
Definition ex_ops : list op := [OWatch ex_a; OWatch ex_b; OUpdate ex_a (ex_desc 1); OUpdate ex_b (ex_desc 2)].
Example two_claimants :
  probe_grpc (run_ops lit_valid ex_ops) ex_svc = Some (mk_sr ex_a 1 0) /\
  probe_grpc (run_ops lit_valid (ex_ops ++ [OUpdate ex_b (ex_desc 3)])) ex_svc = Some (mk_sr ex_a 1 0) /\
  probe_grpc (run_ops lit_valid (ex_ops ++ [OClose ex_a])) ex_svc = Some (mk_sr ex_b 2 0) /\
  probe_grpc (run_ops lit_valid (ex_ops ++ [OClose ex_a; OClose ex_b])) ex_svc = None.
Proof. vm_compute. auto. Qed.
