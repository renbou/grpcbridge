From GB Require Import Model.Routers Proofs.Common Proofs.ListFacts.
Open Scope Z_scope.

Section T.
  Variable valid : bytes -> bool.
  Variable matches : bytes -> bytes -> bool.

  (* abstract spec: latest description of every live (watched and updated) target *)
  Definition latest := list (bytes * desc).
  Fixpoint lget (n : bytes) (l : latest) : option desc :=
    match l with [] => None | (k, d) :: r => if bytes_eqb n k then Some d else lget n r end.
  Definition lset (n : bytes) (d : desc) (l : latest) : latest := (n, d) :: filter (fun kv => negb (bytes_eqb n (fst kv))) l.
  Definition ldel (n : bytes) (l : latest) : latest := filter (fun kv => negb (bytes_eqb n (fst kv))) l.

  Lemma lget_lset n d l k : lget k (lset n d l) = if bytes_eqb k n then Some d else lget k l.
  Proof. exact (aget_aset k n d l). Qed.
  Lemma lget_ldel n l k : lget k (ldel n l) = if bytes_eqb k n then None else lget k l.
  Proof. exact (aget_adel k n l). Qed.

  (* per-HTTP-method representation invariant of the pattern table *)
  Definition entries_ok (lt : latest) (http : bytes) (es : list entry) : Prop :=
    NoDup (map e_target es) /\
    (forall e, In e es -> exists d, lget (e_target e) lt = Some d /\ e_desc e = d_id d /\
                                   e_routes e = routes_for valid d http /\ e_routes e <> []) /\
    (forall n d, lget n lt = Some d -> routes_for valid d http <> [] -> exists e, In e es /\ e_target e = n).

  Lemma probe_unique lt http path es n d r :
    entries_ok lt http es ->
    lget n lt = Some d -> first_match matches path (routes_for valid d http) = Some r ->
    (forall n' d', n' <> n -> lget n' lt = Some d' -> first_match matches path (routes_for valid d' http) = None) ->
    probe_entries matches path es = HFound n (d_id d) r.
  Proof.
    intros (_ & Snd & Cmp) Hn Hr Huniq.
    destruct (Cmp n d Hn) as (e0 & I0 & T0); [intros E; rewrite E in Hr; discriminate|]. clear Cmp.
    induction es as [|e es IH]; [destruct I0|]. cbn [probe_entries].
    destruct (Snd e (or_introl eq_refl)) as (de & L & Ed & Er & _). rewrite Er.
    destruct (bytes_eqb_spec (e_target e) n) as [E|E].
    - rewrite E, Hn in L. injection L as <-. rewrite Hr, E, Ed. reflexivity.
    - rewrite (Huniq _ _ E L). apply IH; [intros e' I'; apply Snd; right; exact I' | destruct I0 as [->|I0]; [congruence | exact I0]].
  Qed.

  Lemma probe_none lt http path es :
    entries_ok lt http es ->
    (forall n d, lget n lt = Some d -> first_match matches path (routes_for valid d http) = None) ->
    probe_entries matches path es = HNotFound.
  Proof.
    intros (_ & Snd & _) Hnone. induction es as [|e es IH]; [reflexivity|].
    simpl. destruct (Snd e (or_introl eq_refl)) as (de & L & _ & Er & _).
    rewrite Er, (Hnone _ _ L). apply IH. intros e' I'. apply Snd. right; exact I'.
  Qed.

  Lemma has_entry_In n es : has_entry n es = true <-> In n (map e_target es).
  Proof.
    unfold has_entry. rewrite existsb_exists. split.
    - intros (e & I & E). apply bytes_eqb_eq in E. subst n. apply in_map. exact I.
    - intros I. apply in_map_iff in I as (e & <- & I). exists e. split; [exact I | apply bytes_eqb_refl].
  Qed.

  Lemma map_target_replace n id rs es :
    map e_target (map (fun e => if bytes_eqb (e_target e) n then {| e_target := n; e_desc := id; e_routes := rs |} else e) es) = map e_target es.
  Proof.
    induction es as [|e es IH]; [reflexivity|]. simpl. rewrite IH. f_equal.
    destruct (bytes_eqb_spec (e_target e) n); [simpl; congruence | reflexivity].
  Qed.

  Lemma upd_method_In n id rs es e : In e (upd_method n id rs es) <->
    (In e es /\ e_target e <> n) \/ (rs <> [] /\ e = {| e_target := n; e_desc := id; e_routes := rs |}).
  Proof.
    unfold upd_method. destruct rs as [|r0 rs].
    { rewrite filter_In, negb_true_iff, bytes_eqb_neq. split; [auto | intros [H|[[] _]]; [exact H | reflexivity]]. }
    destruct (has_entry n es) eqn:HE.
    - rewrite in_map_iff. split.
      + intros (e0 & <- & I). destruct (bytes_eqb_spec (e_target e0) n); [right; split; [discriminate | reflexivity] | auto].
      + intros [[I N]|[_ ->]].
        * exists e. rewrite (proj2 (bytes_eqb_neq _ _) N). auto.
        * apply has_entry_In, in_map_iff in HE as (e0 & T & I). exists e0. rewrite T, bytes_eqb_refl. auto.
    - assert (NI : forall e0, In e0 es -> e_target e0 <> n).
      { intros e0 I E. rewrite (proj2 (has_entry_In n es)) in HE; [discriminate | rewrite <- E; apply in_map, I]. }
      rewrite in_app_iff. cbn [In]. split; [intros [I|[<-|[]]]; [auto | right; split; [discriminate | reflexivity]] | intros [[I _]|[_ ->]]; auto].
  Qed.

  Lemma upd_method_NoDup n id rs es : NoDup (map e_target es) -> NoDup (map e_target (upd_method n id rs es)).
  Proof.
    intros ND. unfold upd_method. destruct rs as [|r0 rs]; [apply NoDup_map_filter, ND|].
    destruct (has_entry n es) eqn:HE; [rewrite map_target_replace; exact ND|].
    rewrite map_app. apply NoDup_app; [exact ND | repeat constructor; intros [] | intros x I [<-|[]]].
    apply has_entry_In in I. cbn [e_target] in I. congruence.
  Qed.

  (* addTarget with a description (od = Some d) and removeTarget (od = None: addTarget with nothing to add) do the same
     to the list of one HTTP method; [lt'] is the abstract state afterwards *)
  Definition od_desc (od : option desc) : desc := match od with Some d => d | None => {| d_id := 0; d_services := [] |} end.

  Lemma upd_method_ok lt lt' http n od es :
    (forall k, lget k lt' = if bytes_eqb k n then od else lget k lt) ->
    entries_ok lt http es ->
    entries_ok lt' http (upd_method n (d_id (od_desc od)) (routes_for valid (od_desc od) http) es).
  Proof.
    intros Hlt (ND & Snd & Cmp). split; [apply upd_method_NoDup, ND|]. split.
    - intros e I. apply upd_method_In in I as [[I N]|[NE ->]]; cbn [e_target e_desc e_routes]; rewrite Hlt.
      + rewrite (proj2 (bytes_eqb_neq _ _) N). exact (Snd e I).
      + rewrite bytes_eqb_refl. destruct od as [d|]; [exists d; auto | destruct NE; reflexivity].
    - intros n' d' L NE. rewrite Hlt in L. destruct (bytes_eqb_spec n' n) as [->|N].
      + subst od. eexists. split; [apply upd_method_In; right; split; [exact NE | reflexivity] | reflexivity].
      + destruct (Cmp n' d' L NE) as (e & I & T). exists e. split; [apply upd_method_In; left; split; [exact I | congruence] | exact T].
  Qed.
End T.

(* the same variables again, T being closed: [PInv] is written over the closed [entries_ok valid] *)
Section T2.
  Variable valid : bytes -> bool.
  Variable matches : bytes -> bytes -> bool.

  Definition has_key (http : bytes) (t : ptable) : bool := existsb (fun he => bytes_eqb http (fst he)) t.
  Definition nonempty_e (he : bytes * list entry) : bool := negb (match snd he with [] => true | _ => false end).

  Lemma tbl_get_absent http t : has_key http t = false -> tbl_get http t = [].
  Proof.
    induction t as [|[h es] t IH]; [reflexivity|]. simpl. destruct (bytes_eqb http h); [discriminate | exact IH].
  Qed.

  Lemma has_key_In http t : has_key http t = true <-> In http (map fst t).
  Proof.
    unfold has_key. rewrite existsb_exists. split.
    - intros (he & I & E). apply bytes_eqb_eq in E. subst. apply in_map; exact I.
    - intros I. apply in_map_iff in I as (he & <- & I). exists he. split; [exact I | apply bytes_eqb_refl].
  Qed.

  Lemma tbl_get_map (f : bytes -> list entry -> list entry) http t :
    tbl_get http (map (fun he => (fst he, f (fst he) (snd he))) t) = if has_key http t then f http (tbl_get http t) else [].
  Proof.
    induction t as [|[h es] t IH]; [reflexivity|]. simpl.
    destruct (bytes_eqb_spec http h) as [->|]; [reflexivity | exact IH].
  Qed.

  Lemma has_key_map (f : bytes -> list entry -> list entry) http t :
    has_key http (map (fun he => (fst he, f (fst he) (snd he))) t) = has_key http t.
  Proof. unfold has_key. induction t as [|[h es] t IH]; [reflexivity|]. simpl. rewrite IH. reflexivity. Qed.

  Lemma tbl_get_app http a b : tbl_get http (a ++ b) = if has_key http a then tbl_get http a else tbl_get http b.
  Proof.
    induction a as [|[h es] a IH]; [reflexivity|]. simpl. destruct (bytes_eqb http h); [reflexivity | exact IH].
  Qed.

  Lemma tbl_get_filter_nonempty http t : NoDup (map fst t) -> tbl_get http (filter nonempty_e t) = tbl_get http t.
  Proof.
    induction t as [|[h es] t IH]; intros ND; [reflexivity|]. simpl in *. inversion ND; subst.
    unfold nonempty_e at 1. simpl. destruct es as [|e es]; simpl.
    - destruct (bytes_eqb_spec http h) as [<-|]; [|apply IH; assumption].
      rewrite IH by assumption. apply tbl_get_absent.
      destruct (has_key http t) eqn:K; [apply has_key_In in K; contradiction | reflexivity].
    - destruct (bytes_eqb http h); [reflexivity | apply IH; assumption].
  Qed.

  Lemma dedup_In x l : In x (dedup l) <-> In x l.
  Proof.
    induction l as [|y l IH]; simpl; [reflexivity|].
    destruct (existsb (bytes_eqb y) l) eqn:E; [|simpl; rewrite IH; reflexivity].
    rewrite IH. split; [auto|]. intros [->|I]; [apply mem_In; exact E | exact I].
  Qed.

  Lemma dedup_NoDup l : NoDup (dedup l).
  Proof.
    induction l as [|y l IH]; simpl; [constructor|].
    destruct (existsb (bytes_eqb y) l) eqn:E; [exact IH|].
    constructor; [|exact IH]. rewrite dedup_In, <- mem_In, E. discriminate.
  Qed.

  Lemma routes_for_absent d http : ~ In http (map r_http (all_routes valid d)) -> routes_for valid d http = [].
  Proof.
    unfold routes_for. induction (all_routes valid d) as [|r l IH]; intros N; [reflexivity|]. simpl in *.
    destruct (bytes_eqb_spec (r_http r) http) as [E|]; [exfalso; apply N; left; exact E|].
    apply IH. intros I. apply N. right; exact I.
  Qed.

  Lemma tbl_get_map_keys (g : bytes -> list entry) http fk :
    tbl_get http (map (fun h => (h, g h)) fk) = if existsb (bytes_eqb http) fk then g http else [].
  Proof.
    induction fk as [|h fk IH]; [reflexivity|]. simpl.
    destruct (bytes_eqb_spec http h) as [->|]; [reflexivity | exact IH].
  Qed.

  Definition fresh_keys (d : desc) (t : ptable) : list bytes :=
    filter (fun h => negb (existsb (fun he => bytes_eqb h (fst he)) t)) (dedup (map r_http (all_routes valid d))).

  Lemma add_target_keys_nodup n d t : NoDup (map fst t) ->
    NoDup (map fst (map (fun he => (fst he, upd_method n (d_id d) (routes_for valid d (fst he)) (snd he))) t ++
                    map (fun h => (h, upd_method n (d_id d) (routes_for valid d h) [])) (fresh_keys d t))).
  Proof.
    intros ND. rewrite map_app, !map_map. cbn [fst]. rewrite map_id.
    apply NoDup_app; [exact ND | apply NoDup_filter, dedup_NoDup|].
    intros h K I. apply filter_In in I as [_ I]. apply negb_true_iff in I. apply has_key_In in K. unfold has_key in K. congruence.
  Qed.

  Theorem tbl_get_add_target n d t http : NoDup (map fst t) ->
    tbl_get http (add_target valid n d t) = upd_method n (d_id d) (routes_for valid d http) (tbl_get http t).
  Proof.
    intros ND. unfold add_target. fold (fresh_keys d t). fold nonempty_e.
    rewrite tbl_get_filter_nonempty by (apply add_target_keys_nodup; exact ND).
    rewrite tbl_get_app, (has_key_map (fun h es => upd_method n (d_id d) (routes_for valid d h) es)).
    rewrite (tbl_get_map (fun h es => upd_method n (d_id d) (routes_for valid d h) es)).
    destruct (has_key http t) eqn:K; [reflexivity|].
    rewrite (tbl_get_absent http t K).
    rewrite (tbl_get_map_keys (fun h => upd_method n (d_id d) (routes_for valid d h) [])).
    destruct (existsb (bytes_eqb http) (fresh_keys d t)) eqn:F; [reflexivity|].
    unfold fresh_keys in F. rewrite mem_filter in F. fold (has_key http t) in F. rewrite K, andb_true_r in F.
    rewrite routes_for_absent; [reflexivity|]. intros I. apply dedup_In, mem_In in I. congruence.
  Qed.

  Lemma remove_target_add n t : remove_target n t = add_target valid n (od_desc None) t.
  Proof. unfold remove_target, add_target. cbn. rewrite app_nil_r. reflexivity. Qed.

  Theorem tbl_get_remove_target n t http : NoDup (map fst t) ->
    tbl_get http (remove_target n t) = upd_method n 0 [] (tbl_get http t).
  Proof. intros ND. rewrite remove_target_add. exact (tbl_get_add_target n (od_desc None) t http ND). Qed.

  Definition PInv (lt : latest) (t : ptable) : Prop :=
    NoDup (map fst t) /\ forall http, entries_ok valid lt http (tbl_get http t).

  Lemma PInv_init : PInv [] [].
  Proof. split; [constructor|]. intros http. split; [constructor|]. split; [intros e []|]. intros n d L. discriminate. Qed.

  Lemma PInv_set lt lt' t n od : (forall k, lget k lt' = if bytes_eqb k n then od else lget k lt) ->
    PInv lt t -> PInv lt' (add_target valid n (od_desc od) t).
  Proof.
    intros Hlt [ND H]. split.
    - unfold add_target. fold (fresh_keys (od_desc od) t). apply NoDup_map_filter, add_target_keys_nodup, ND.
    - intros http. rewrite tbl_get_add_target by exact ND. apply (upd_method_ok valid lt); auto.
  Qed.

  Lemma PInv_add lt t n d : PInv lt t -> PInv (lset n d lt) (add_target valid n d t).
  Proof. apply (PInv_set lt _ t n (Some d)). intros k. apply lget_lset. Qed.

  Lemma PInv_remove lt t n : PInv lt t -> PInv (ldel n lt) (remove_target n t).
  Proof. rewrite remove_target_add. apply (PInv_set lt _ t n None). intros k. apply lget_ldel. Qed.

  Definition spec_latest (wl : list bytes * latest) (o : op) : list bytes * latest :=
    let '(w, lt) := wl in
    match o with
    | OWatch n => if existsb (bytes_eqb n) w then (w, lt) else (n :: w, lt)
    | OUpdate n d => if existsb (bytes_eqb n) w then (w, lset n d lt) else (w, lt)
    | OClose n => if existsb (bytes_eqb n) w then (filter (fun x => negb (bytes_eqb n x)) w, ldel n lt) else (w, lt)
    end.

  Definition run_ops (ops : list op) : rstate := fold_left (fun s o => fst (step valid s o)) ops init_state.
  Definition run_spec (ops : list op) : list bytes * latest := fold_left spec_latest ops ([], []).

  (* any relation between the abstract state and the two tables that Update and Close preserve holds after every
     history; the set of watched names agrees along the way *)
  Lemma history_ind (I : latest -> ptable -> sstate3 -> Prop) :
    (forall lt t st n d, I lt t st -> I (lset n d lt) (add_target valid n d t) (update_routes n d st)) ->
    (forall lt t st n, I lt t st -> I (ldel n lt) (remove_target n t) (remove_starget n st)) ->
    forall ops s wl, st_watch s = fst wl -> I (snd wl) (st_pt s) (st_st s) ->
      let s' := fold_left (fun s o => fst (step valid s o)) ops s in
      let wl' := fold_left spec_latest ops wl in
      st_watch s' = fst wl' /\ I (snd wl') (st_pt s') (st_st s').
  Proof.
    intros Upd Cls. induction ops as [|o ops IH]; intros s [w lt] W P; cbn [fold_left]; [auto|].
    cbn [fst snd] in W, P. apply IH; destruct o as [n|n d|n]; cbn [step spec_latest]; unfold watched; rewrite W;
      destruct (existsb (bytes_eqb n) w); cbn [fst snd st_watch st_pt st_st]; auto.
  Qed.

  Theorem history_inv ops : st_watch (run_ops ops) = fst (run_spec ops) /\ PInv (snd (run_spec ops)) (st_pt (run_ops ops)).
  Proof using valid matches.
    apply (history_ind (fun lt t _ => PInv lt t)); [intros; apply PInv_add; auto | intros; apply PInv_remove; auto | reflexivity | apply PInv_init].
  Qed.

  (* C06, pattern router: after ANY history, a request matched by exactly one live target is routed to the first
     matching binding of that target's LATEST description; one matched by none is NotFound *)
  Theorem pattern_refines ops http path n d r :
    lget n (snd (run_spec ops)) = Some d ->
    first_match matches path (routes_for valid d http) = Some r ->
    (forall n' d', n' <> n -> lget n' (snd (run_spec ops)) = Some d' -> first_match matches path (routes_for valid d' http) = None) ->
    probe_http matches (st_pt (run_ops ops)) http path = HFound n (d_id d) r.
  Proof.
    intros L M U. destruct (history_inv ops) as [_ [_ H]]. unfold probe_http.
    eapply probe_unique; eauto.
  Qed.

  Theorem pattern_refines_none ops http path :
    (forall n d, lget n (snd (run_spec ops)) = Some d -> first_match matches path (routes_for valid d http) = None) ->
    probe_http matches (st_pt (run_ops ops)) http path = HNotFound.
  Proof.
    intros U. destruct (history_inv ops) as [_ [_ H]]. unfold probe_http. eapply probe_none; eauto.
  Qed.

  (* Watch succeeds iff the name is not currently watched *)
  Theorem watch_exclusive ops n :
    snd (step valid (run_ops ops) (OWatch n)) = (if existsb (bytes_eqb n) (fst (run_spec ops)) then 0 else 1).
  Proof using valid matches.
    destruct (history_inv ops) as [W _]. simpl. unfold watched. rewrite W.
    destruct (existsb (bytes_eqb n) (fst (run_spec ops))); reflexivity.
  Qed.
End T2.

Section T3.
  Variable valid : bytes -> bool.
  Let ok (r : route) := valid (r_pattern r) = true.
  Lemma bindings_routes_valid si mi bs : forall bi, Forall ok (bindings_routes valid si mi bi bs).
  Proof.
    induction bs as [|b bs IH]; intros bi; cbn [bindings_routes]; [constructor|]. apply Forall_app. split; [|apply IH].
    destruct (valid (b_pattern b)) eqn:V; repeat constructor. exact V.
  Qed.
  Lemma methods_routes_valid svc si ms : forall mi, Forall ok (methods_routes valid svc si mi ms).
  Proof.
    induction ms as [|m ms IH]; intros mi; cbn [methods_routes]; [constructor|]. apply Forall_app. split; [|apply IH].
    unfold method_routes. destruct (m_bindings m) as [|b bs]; [|apply bindings_routes_valid].
    destruct (valid (rpc_name svc (m_name m))) eqn:V; repeat constructor. exact V.
  Qed.
  Lemma services_routes_valid ss : forall si, Forall ok (services_routes valid si ss).
  Proof.
    induction ss as [|s ss IH]; intros si; cbn [services_routes]; [constructor|].
    apply Forall_app. split; [apply methods_routes_valid | apply IH].
  Qed.
  Theorem routes_valid d http r : In r (routes_for valid d http) -> valid (r_pattern r) = true.
  Proof. unfold routes_for. intros I. apply filter_In in I as [I _]. revert r I. apply Forall_forall, services_routes_valid. Qed.
End T3.
