(* C05, the other half: against ANY conformant server the dependency search SUCCEEDS - the resolver ends up with a set of
   the server's files that contains the defining file of every requested service, whatever the answering policy (full
   closures, only the requested file, nothing that was already sent on the stream, any order, extra files). *)
From GB Require Import Model.ReflProto Proofs.ReflProtoProofs Proofs.Common Proofs.ListFacts.
From Coq Require Import Lia.
Open Scope Z_scope.

Lemma filter_nil_all {A} (p : A -> bool) l : (forall x, In x l -> p x = false) -> filter p l = [].
Proof. apply filter_nil. Qed.

Lemma in_fnames f l : In f l -> In (rf_name f) (fnames l).
Proof. apply in_map. Qed.

Section Complete.
  Variable U : list rfile.
  (* any topological rank of the server's dependency graph (dependencies rank strictly lower: the graph is acyclic); the
     recursion limit must exceed the ranks (the depth of the graph) *)
  Variable rank : bytes -> nat.
  Hypothesis U_deps : forall f d, In f U -> In d (rf_deps f) -> In d (fnames U) /\ (rank d < rank (rf_name f))%nat.

  Variable ans_sym ans_file : list bytes -> bytes -> option (list rfile).

  (* "conformant" is stated on the answering functions: an answer consists of the server's own files, none ranked above
     the requested one (the requested file and some of its transitive dependencies), and contains the requested file
     unless that was already sent on this stream *)
  Definition file_conformant : Prop := forall sent q, In q (fnames U) ->
    exists fs, ans_file sent q = Some fs /\
      (forall f, In f fs -> In f U /\ (rank (rf_name f) <= rank q)%nat) /\ (In q (fnames fs) \/ In q sent).

  Definition defines (f : rfile) (s : bytes) : Prop := exists sv, In sv (rf_svcs f) /\ rs_name sv = s.

  Definition sym_conformant : Prop := forall sent s, (exists f, In f U /\ defines f s) ->
    exists fs, ans_sym sent s = Some fs /\ (forall f, In f fs -> In f U) /\
      exists f, In f U /\ defines f s /\ (In (rf_name f) (fnames fs) \/ In (rf_name f) sent).

  Hypothesis FC : file_conformant.
  Hypothesis SC : sym_conformant.

  Lemma batch_file : forall reqs sent, (forall q, In q reqs -> In q (fnames U)) ->
    exists raw, batch ans_file sent reqs = Some (raw, sent ++ fnames raw) /\
      (forall f, In f raw -> In f U /\ exists q, In q reqs /\ (rank (rf_name f) <= rank q)%nat) /\
      (forall q, In q reqs -> In q (fnames raw) \/ In q sent).
  Proof.
    induction reqs as [|q reqs IH]; intros sent HU.
    - exists []. cbn [batch fnames map]. rewrite app_nil_r. split; [reflexivity|]. split; [intros f []|intros q []].
    - destruct (FC sent q (HU q (or_introl eq_refl))) as (fs & A & B & C).
      destruct (IH (sent ++ fnames fs) (fun x Hx => HU x (or_intror Hx))) as (rest & E & F & G).
      exists (fs ++ rest). cbn [batch]. rewrite A, E, fnames_app, app_assoc. split; [reflexivity|]. split.
      + intros f Hf. apply in_app_or in Hf as [Hf|Hf].
        * destruct (B f Hf). split; [|exists q]; auto using in_eq.
        * destruct (F f Hf) as [? (q' & ? & ?)]. split; [|exists q']; auto using in_cons.
      + intros q' [<-|Hq].
        * destruct C; auto using in_or_app.
        * destruct (G q' Hq) as [G1|G1]; [|apply in_app_or in G1 as [G1|G1]]; auto using in_or_app.
  Qed.

  Lemma bfs_complete : forall fuel sent set missing,
    (forall m, In m missing -> In m (fnames U) /\ (rank m < fuel)%nat) ->
    (forall x, In x sent -> In x (fnames set)) ->
    (forall f, In f set -> In f U) ->
    (forall m, In m missing -> ~ In m (fnames set)) ->
    exists res, bfs ans_file fuel sent set missing = Some res /\ (forall f, In f res -> In f U) /\ (forall f, In f set -> In f res).
  Proof.
    induction fuel as [|fuel IH]; intros sent set missing HM HS HU HN;
      (destruct missing as [|m0 ms]; [exists set; rewrite bfs_nil; auto|]); [destruct (HM m0 (or_introl eq_refl)); lia|].
    destruct (batch_file (m0 :: ms) sent (fun q Hq => proj1 (HM q Hq))) as (raw & E & F & G).
    assert (RU : forall f, In f (dedupe [] raw) -> In f U /\ exists q, In q (m0 :: ms) /\ (rank (rf_name f) <= rank q)%nat)
      by (intros f Hf; eapply F, dedupe_sub, Hf).
    rewrite bfs_S, E by discriminate. rewrite (proj2 (all_got _ _)).
    - destruct (IH (sent ++ fnames raw) (set ++ fresh set (dedupe [] raw))
                   (deps_missing (dedupe [] raw) (fnames set ++ fnames (dedupe [] raw)))) as (res & R1 & R2 & R3).
      + intros d Hd. apply next_missing in Hd as [(g & Hg & Hd) _]. destruct (RU g Hg) as [GU (q & Hq & RQ)].
        destruct (U_deps g d GU Hd) as [D1 D2]. split; [exact D1|]. destruct (HM q Hq). lia.
      + intros x Hx. apply fresh_names. apply in_app_or in Hx as [Hx|Hx]; [auto|]. right. apply dedupe_fnames, Hx.
      + intros f Hf. apply in_app_or in Hf as [Hf|Hf]; [auto|]. apply RU, (proj1 (fresh_In set _ f) Hf).
      + intros d Hd. apply next_missing in Hd. tauto.
      + exists res. split; [exact R1 | auto using in_or_app].
    - (* every requested file came: it was not sent before, since sent names are in [set] and missing ones are not *)
      intros m Hm. apply dedupe_fnames. destruct (G m Hm) as [G1|G1]; [exact G1 | destruct (HN m Hm (HS m G1))].
  Qed.

  Lemma batch_sym : forall names sent, (forall s, In s names -> exists f, In f U /\ defines f s) ->
    exists raw, batch ans_sym sent names = Some (raw, sent ++ fnames raw) /\ (forall f, In f raw -> In f U) /\
      (forall s, In s names -> exists f, In f U /\ defines f s /\ (In (rf_name f) (fnames raw) \/ In (rf_name f) sent)).
  Proof.
    induction names as [|s names IH]; intros sent HD.
    - exists []. cbn [batch fnames map]. rewrite app_nil_r. split; [reflexivity|]. split; [intros f []|intros s []].
    - destruct (SC sent s (HD s (or_introl eq_refl))) as (fs & A & B & (fd & D1 & D2 & D3)).
      destruct (IH (sent ++ fnames fs) (fun x Hx => HD x (or_intror Hx))) as (rest & E & F & G).
      exists (fs ++ rest). cbn [batch]. rewrite A, E, fnames_app, app_assoc. split; [reflexivity|]. split.
      + intros f Hf. apply in_app_or in Hf as [Hf|Hf]; auto.
      + intros s' [<-|Hs].
        * exists fd. destruct D3; auto 6 using in_or_app.
        * destruct (G s' Hs) as (g & G1 & G2 & [G3|G3]); exists g; [|apply in_app_or in G3 as [G3|G3]]; auto 6 using in_or_app.
  Qed.

  Theorem collect_complete limit names :
    (forall n, In n (fnames U) -> (rank n < limit)%nat) ->
    (forall s, In s names -> exists f, In f U /\ defines f s) ->
    exists res, collect ans_sym ans_file limit names = Some res /\
      (forall f, In f res -> In f U) /\
      (forall s, In s names -> exists f, In f U /\ defines f s /\ In (rf_name f) (fnames res)).
  Proof.
    intros HL HD. unfold collect.
    destruct (batch_sym names [] HD) as (raw & E & F & G). rewrite E. cbn [app].
    set (set0 := dedupe [] raw).
    assert (S0U : forall f, In f set0 -> In f U) by (intros f Hf; eapply F, dedupe_sub, Hf).
    destruct (bfs_complete limit (fnames raw) set0 (deps_missing set0 (fnames set0))) as (res & R1 & R2 & R3).
    - intros m Hm. apply deps_missing_In in Hm as [(g & Hg & Hd) _].
      destruct (U_deps g m (S0U g Hg) Hd) as [D1 D2]. auto.
    - intros x. apply dedupe_fnames.
    - exact S0U.
    - intros m Hm. apply deps_missing_In in Hm. exact (proj2 Hm).
    - exists res. split; [exact R1|]. split; [exact R2|].
      intros s Hs. destruct (G s Hs) as (f & F1 & F2 & [F3|[]]). exists f. split; [exact F1|]. split; [exact F2|].
      apply dedupe_fnames, in_fnames_iff in F3 as (h & <- & Hh). apply in_fnames, R3, Hh.
  Qed.

  Hypothesis U_nodup : NoDup (fnames U).

  Lemma same_name_same_file : forall f g, In f U -> In g U -> rf_name f = rf_name g -> f = g.
  Proof.
    clear FC SC U_deps. induction U as [|a l IH]; intros f g Hf Hg E; [destruct Hf|].
    cbn [fnames map] in U_nodup. inversion U_nodup as [|? ? NI ND]; subst.
    destruct Hf as [<-|Hf], Hg as [<-|Hg]; [reflexivity | | | exact (IH ND f g Hf Hg E)];
      destruct NI; [rewrite E | rewrite <- E]; apply in_fnames; assumption.
  Qed.

  Lemma find_svc_some s : forall set, (exists f, In f set /\ defines f s) -> exists sv, find_svc s set = Some sv /\ rs_name sv = s.
  Proof.
    induction set as [|a set IH]; intros (f & Hf & D); [destruct Hf|]. cbn [find_svc].
    pose proof (filter_head (fun sv => bytes_eqb (rs_name sv) s) (rf_svcs a)) as FH. destruct (filter _ (rf_svcs a)) as [|sv l].
    - destruct Hf as [<-|Hf]; [|apply IH; eauto]. destruct D as (sv & I1 & <-).
      pose proof (FH sv I1) as X. rewrite bytes_eqb_refl in X. discriminate.
    - exists sv. split; [reflexivity | apply bytes_eqb_eq, FH].
  Qed.

  Lemma describe_some set : forall names, (forall s, In s names -> exists f, In f set /\ defines f s) ->
    exists svcs, describe names set = Some svcs /\ map rs_name svcs = names.
  Proof.
    induction names as [|s l IH]; intros D; [exists []; auto|].
    destruct (IH (fun x Hx => D x (or_intror Hx))) as (svcs & D1 & D2).
    destruct (find_svc_some s set (D s (or_introl eq_refl))) as (sv & S1 & S2).
    exists (sv :: svcs). cbn [describe map]. rewrite S1, D1, S2, D2. auto.
  Qed.

  Theorem describe_complete limit names :
    (forall n, In n (fnames U) -> (rank n < limit)%nat) ->
    (forall s, In s names -> exists f, In f U /\ defines f s) ->
    exists res svcs, collect ans_sym ans_file limit names = Some res /\ describe names res = Some svcs /\ map rs_name svcs = names.
  Proof.
    intros HL HD. destruct (collect_complete limit names HL HD) as (res & C1 & C2 & C3). exists res.
    destruct (describe_some res names) as (svcs & D1 & D2); [|exists svcs; auto].
    (* the file that defines [s] is in [res] by name, hence itself: names are unique in [U] *)
    intros s Hs. destruct (C3 s Hs) as (f & F1 & F2 & F3). exists f. split; [|exact F2].
    apply in_fnames_iff in F3 as (g & EG & Hg). rewrite <- (same_name_same_file g f (C2 g Hg) F1 EG). exact Hg.
  Qed.
End Complete.

(* the hypotheses are met by a concrete server: two files, the service's file depends on the other, and a server that
   answers every request with exactly the requested file (python grpclib's policy) *)
Definition ex_b : rfile := {| rf_name := [98]%N; rf_deps := []; rf_svcs := [] |}.
Definition ex_a : rfile := {| rf_name := [97]%N; rf_deps := [[98]%N]; rf_svcs := [{| rs_name := [83]%N; rs_methods := [] |}] |}.
Definition ex_U : list rfile := [ex_a; ex_b].
Definition ex_rank (n : bytes) : nat := if bytes_eqb n [97]%N then 1%nat else 0%nat.
Definition ex_file (_ : list bytes) (q : bytes) : option (list rfile) := match u_find q ex_U with Some f => Some [f] | None => None end.
Definition ex_sym (_ : list bytes) (s : bytes) : option (list rfile) := match u_symbol s ex_U with Some f => Some [f] | None => None end.

Example ex_describe : exists res svcs, collect ex_sym ex_file 2 [[83]%N] = Some res /\ describe [[83]%N] res = Some svcs /\ map rs_name svcs = [[83]%N].
Proof.
  assert (D : defines ex_a [83]%N) by (eexists; split; [left|]; reflexivity).
  apply (describe_complete ex_U ex_rank).
  - intros f d [<-|[<-|[]]] Hd; cbn in Hd; [destruct Hd as [<-|[]]; split; [right; left; reflexivity | repeat constructor] | destruct Hd].
  - intros sent q [<-|[<-|[]]]; [exists [ex_a] | exists [ex_b]]; (split; [reflexivity|]; split; [intros f [<-|[]]; split; [cbn; auto | repeat constructor] | left; left; reflexivity]).
  - intros sent s (f & [<-|[<-|[]]] & (sv & Hsv & <-)); cbn in Hsv; [destruct Hsv as [<-|[]] | destruct Hsv].
    exists [ex_a]. split; [reflexivity|]. split; [intros g [<-|[]]; left; reflexivity|].
    exists ex_a. split; [left; reflexivity|]. split; [exact D | left; left; reflexivity].
  - repeat constructor; cbn; intuition discriminate.
  - intros n [<-|[<-|[]]]; repeat constructor.
  - intros s [<-|[]]. exists ex_a. split; [left; reflexivity | exact D].
Qed.
