From GB Require Import Model.ResolverConc.
From Coq Require Import Lia.
Open Scope Z_scope.

Lemma set_nth_In x c : forall l i, In c (set_nth i x l) -> c = x \/ In c l.
Proof. induction l as [|a l IH]; intros [|i]; cbn [set_nth In]; [tauto | tauto | intros [<-|H]; auto | intros [H|H]; [|apply IH in H]; tauto]. Qed.

Definition with_callers (s : st) (cl : bool) (l : list cpc) : st :=
  {| pc := pc s; closed := cl; gen := gen s; polls := polls s; callers := l; closer_returned := closer_returned s;
     contract := contract s; last := last s; cbs := cbs s |}.

Section Faithful.
  Variable timer : bool.
  Notation step := (step false timer).
  Notation Reach := (Reach false timer).

  (* the moves of the faithful loop (rearm_always = false), one constructor per program point; MDeliver leaves open what
     is delivered, which no invariant below depends on *)
  Inductive move (s : st) : st -> Prop :=
  | MRead : pc s = PStart -> move s (upd s (PRead (contract s)) (closed s) (gen s) (polls s) (last s) (cbs s))
  | MDeliver c l cb : pc s = PRead c -> move s (upd s PSelect (closed s) (gen s) (polls s) l cb)
  | MWoken : pc s = PSelect -> closed s = true -> move s (upd s PRearm false (S (gen s)) (polls s) (last s) (cbs s))
  | MPoll : pc s = PSelect \/ pc s = PRearm -> move s (upd s PStart (closed s) (gen s) (S (polls s)) (last s) (cbs s))
  | MLoad i : nth_error (callers s) i = Some CIdle ->
      move s (with_callers s (closed s) (set_nth i (CLoaded (polls s) (gen s)) (callers s)))
  | MCall i k g : nth_error (callers s) i = Some (CLoaded k g) ->
      move s (with_callers s (if Nat.eqb g (gen s) then true else closed s) (set_nth i (CReturned k) (callers s)))
  | MClose : pc s = PSelect -> closer_returned s = false ->
      move s {| pc := PExit; closed := closed s; gen := gen s; polls := polls s; callers := callers s; closer_returned := true;
                contract := contract s; last := last s; cbs := cbs s |}
  | MEnv c : move s (env_steps s c).

  Lemma step_move s s' : step s s' -> move s s'.
  Proof.
    intros [a b H|a b H|a b H|a c]; [| | |constructor].
    - unfold poller_steps in H. destruct (pc a) eqn:P; cbn [In] in H.
      + destruct H as [<-|[]]. constructor; exact P.
      + destruct H as [<-|[]]. econstructor; exact P.
      + apply in_app_or in H as [H|H].
        * destruct (closed a) eqn:C; [|destruct H]. destruct H as [<-|[]]. constructor; auto.
        * destruct timer; [|destruct H]. destruct H as [<-|[]]. constructor; auto.
      + destruct H as [<-|[]]. constructor; auto.
      + destruct H.
    - apply in_flat_map in H as (i & _ & H).
      destruct (nth_error (callers a) i) as [[|k g|k]|] eqn:N; try (destruct H; fail); destruct H as [<-|[]]; [apply MLoad | eapply MCall]; exact N.
    - unfold closer_steps in H. destruct (pc a) eqn:P; try (destruct H; fail). destruct (closer_returned a) eqn:C; [destruct H|].
      destruct H as [<-|[]]. constructor; auto.
  Qed.

  (* the invariant, per caller: a returned ResolveNow call after whose beginning no poll has started yet has left its mark -
     the current channel is closed (so the select's resolve-now branch is enabled), or the poller is already on its way
     into the next poll, or the resolver was closed *)
  Definition ok (s : st) (c : cpc) : Prop :=
    match c with
    | CIdle => True
    | CReturned k => (k <= polls s)%nat /\ (polls s = k -> closed s = true \/ pc s = PRearm \/ pc s = PExit)
    | CLoaded k g => (k <= polls s)%nat /\ (g <= gen s)%nat /\ ((g < gen s)%nat -> (k < polls s)%nat \/ pc s = PRearm \/ pc s = PExit)
    end.
  Definition Inv (s : st) : Prop := forall c, In c (callers s) -> ok s c.

  Lemma inv_init n c0 : Inv (init n c0).
  Proof. intros c H. apply repeat_spec in H as ->. exact I. Qed.

  (* [ok s c] survives a change of the state in which the two counters only grow and which, as long as no new poll has
     started, either takes the poller to PRearm / PExit or leaves the generation alone, a closed channel closed and a
     poller at PRearm / PExit where it is: every move but a caller's own is of this kind (move_keeps) *)
  Lemma ok_mono s s' c : ok s c -> (polls s <= polls s')%nat -> (gen s <= gen s')%nat ->
    (polls s' = polls s -> (pc s' = PRearm \/ pc s' = PExit) \/
       (gen s' = gen s /\ (closed s = true -> closed s' = true) /\ (pc s = PRearm -> pc s' = PRearm) /\ (pc s = PExit -> pc s' = PExit))) ->
    ok s' c.
  Proof.
    destruct c as [|k g|k]; cbn; [auto | |].
    - intros (A & B & C) Hp Hg H. split; [lia|]. split; [lia|]. intros L.
      destruct (Nat.eq_dec (polls s') (polls s)) as [E|NE]; [|left; lia].
      destruct (H E) as [M|(G & _ & R & X)]; [auto|]. rewrite G in L. destruct (C L) as [Y|[Y|Y]]; [left; lia | auto | auto].
    - intros (A & B) Hp Hg H. split; [lia|]. intros E. assert (E' : polls s' = polls s) by lia.
      destruct (H E') as [M|(_ & CL & R & X)]; [auto|]. destruct (B (eq_trans (eq_sym E') E)) as [Y|[Y|Y]]; auto.
  Qed.

  Lemma move_keeps s s' c : move s s' -> ok s c -> ok s' c.
  Proof.
    intros M O. destruct M as [P|c0 l cb P|P C|P|i N|i k g N|P C|c0];
      (apply (ok_mono s _ c O); cbn; [lia | lia | intros E; try lia; auto 6]).
    (* left over: the poller at PStart / PRead, where [pc s] is neither PRearm nor PExit; a caller's call, which closes the
       channel or leaves it *)
    all: right; repeat split; auto; try congruence.
    destruct (Nat.eqb g (gen s)); auto.
  Qed.

  Lemma inv_step s s' : Inv s -> step s s' -> Inv s'.
  Proof.
    intros I H c Hc. apply step_move in H. pose proof (fun c Hc => move_keeps s s' c H (I c Hc)) as K.
    destruct H as [P|c0 l cb P|P C|P|i N|i k g N|P C|c0]; cbn in Hc; auto.
    (* the two caller moves write an entry of their own *)
    - apply set_nth_In in Hc as [->|Hc]; [cbn; lia | auto].
    - apply set_nth_In in Hc as [->|Hc]; [|auto]. destruct (I _ (nth_error_In _ _ N)) as (A & B & C).
      cbn. split; [exact A|]. intros X. destruct (Nat.eqb_spec g (gen s)); [auto|]. destruct C as [Y|Y]; [lia | lia | auto].
  Qed.

  Theorem inv_reach n c0 s : Reach (init n c0) s -> Inv s.
  Proof. intros R. induction R; [apply inv_init | eapply inv_step; eauto]. Qed.

  (* C15: a resolve-now request is never lost.  In every reachable state, under every interleaving: if a ResolveNow call
     has returned and no poll has started since the call began, then a poller that is waiting has its resolve-now
     branch enabled - it cannot stay asleep.  (That the poll it then starts reads the contract afresh is one step of the
     poller, next_poll_reads_afresh below.) *)
  Theorem resolve_now_not_lost n c0 s i k : Reach (init n c0) s ->
    nth_error (callers s) i = Some (CReturned k) -> polls s = k -> pc s = PSelect ->
    closed s = true /\ exists s', In s' (poller_steps false timer s) /\ pc s' = PRearm.
  Proof.
    intros R G E P. destruct (inv_reach _ _ _ R _ (nth_error_In _ _ G)) as [_ B].
    destruct (B E) as [C|[C|C]]; try congruence. split; [exact C|].
    unfold poller_steps. rewrite P, C. eexists. split; [left; reflexivity | reflexivity].
  Qed.

  Theorem next_poll_reads_afresh s s' c : pc s = PStart -> In s' (poller_steps false timer s) -> contract s = c -> pc s' = PRead c.
  Proof. intros P H <-. unfold poller_steps in H. rewrite P in H. destruct H as [<-|[]]. reflexivity. Qed.

  (* no callback after Close has returned: the closer returns only by handing the poller its exit, and an exited poller
     neither moves nor delivers *)
  Lemma closed_exit_step s s' : (closer_returned s = true -> pc s = PExit) -> step s s' -> (closer_returned s' = true -> pc s' = PExit).
  Proof. intros I H. apply step_move in H. destruct H; cbn; intuition congruence. Qed.

  Theorem close_returned_means_exit n c0 s : Reach (init n c0) s -> closer_returned s = true -> pc s = PExit.
  Proof. intros R. induction R; [discriminate | eapply closed_exit_step; eauto]. Qed.

  Theorem no_callback_after_exit s s' : pc s = PExit -> step s s' -> pc s' = PExit /\ cbs s' = cbs s /\ last s' = last s.
  Proof. intros P H. apply step_move in H. destruct H; cbn; intuition congruence. Qed.

  Theorem no_callback_after_close n c0 s s' : Reach (init n c0) s -> closer_returned s = true -> Reach s s' -> cbs s' = cbs s.
  Proof.
    intros R C R'. pose proof (close_returned_means_exit _ _ _ R C) as P.
    assert (G : pc s' = PExit /\ cbs s' = cbs s).
    { induction R' as [|s1 s2 R1 IH H]; [auto|]. destruct IH as [P1 E1].
      destruct (no_callback_after_exit _ _ P1 H) as (P2 & E2 & _). split; [exact P2 | congruence]. }
    apply G.
  Qed.
End Faithful.

(* with the re-arming moved in front of every wait (the seeded change) a request issued during a poll IS lost: the caller
   has returned, no poll has started since, and the poller sleeps on an open channel *)
Theorem rearm_always_loses_a_request : exists s,
  run true false [0; 1; 1; 0]%nat (init 1 7) = Some s /\
  nth_error (callers s) 0 = Some (CReturned 1) /\ polls s = 1%nat /\ pc s = PSelect /\ closed s = false /\
  poller_steps true false s = [].
Proof. eexists. split; [vm_compute; reflexivity|]. repeat split. Qed.

(* the same schedule on the faithful loop: the channel stays closed *)
Example faithful_keeps_the_request : exists s,
  run false false [0; 1; 1; 0]%nat (init 1 7) = Some s /\ pc s = PSelect /\ closed s = true.
Proof. eexists. split; [vm_compute; reflexivity|]. split; reflexivity. Qed.
