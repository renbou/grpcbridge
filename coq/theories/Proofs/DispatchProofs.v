From GB Require Import Model.MDFilter Model.Dispatch Proofs.Common Proofs.ListFacts Proofs.MDFilterProofs.
From Coq Require Import Lia ZifyBool.
Open Scope N_scope.

(* strings.Split(v, ",") is the one way to write [v] as a comma-join of comma-free parts: split_spec says it is one,
   split_join that it is the only one *)
Lemma split_spec s : split_on 44 s <> [] /\ Forall no_comma (split_on 44 s) /\ join_comma (split_on 44 s) = s.
Proof.
  induction s as [|c r (NE & F & J)]; cbn [split_on]; [repeat split; [discriminate | repeat constructor; intros []]|].
  destruct (split_on 44 r) as [|t ts]; [congruence|]. pose proof F as [Ft Fts]%Forall_cons_iff. rewrite <- J.
  destruct (N.eqb_spec c 44) as [->|N]; (split; [discriminate|]; split).
  - constructor; [intros []|exact F].
  - reflexivity.
  - constructor; [intros [E|I]; [congruence | contradiction] | exact Fts].
  - destruct ts; reflexivity.
Qed.

Lemma no_comma_cons c t : no_comma (c :: t) -> (c =? 44) = false /\ no_comma t.
Proof. intros H. split; [apply N.eqb_neq; intros -> | intros I]; apply H; [left; reflexivity | right; exact I]. Qed.

Lemma split_no_sep t : no_comma t -> split_on 44 t = [t].
Proof. induction t as [|c t IH]; [reflexivity|]. intros [N H]%no_comma_cons. cbn [split_on]. rewrite N, IH; auto. Qed.

Lemma split_app_sep t s : no_comma t -> split_on 44 (t ++ 44 :: s) = t :: split_on 44 s.
Proof. induction t as [|c t IH]; [reflexivity|]. intros [N H]%no_comma_cons. cbn [app split_on]. rewrite N, IH; auto. Qed.

Lemma split_join ts : ts <> [] -> Forall no_comma ts -> split_on 44 (join_comma ts) = ts.
Proof.
  induction ts as [|t ts IH]; intros NE F; [congruence|].
  inversion F as [|? ? Ht Fts]; subst.
  destruct ts as [|t' r].
  - simpl. apply split_no_sep; exact Ht.
  - change (join_comma (t :: t' :: r)) with (t ++ 44 :: join_comma (t' :: r)).
    rewrite split_app_sep by exact Ht. f_equal. apply IH; [discriminate | exact Fts].
Qed.

Lemma has_token_gen (eq : bytes -> bytes -> bool) tok values :
  reflect (lists_token eq tok values) (existsb (fun v => existsb (fun t => eq (trim_ows t) tok) (split_on 44 v)) values).
Proof.
  apply iff_reflect. split.
  - intros (v & ts & t & Iv & -> & NE & F & It & E).
    apply existsb_exists. exists (join_comma ts). split; [exact Iv|].
    rewrite split_join by assumption. apply existsb_exists. exists t. split; assumption.
  - intros H. apply existsb_exists in H as (v & Iv & H). apply existsb_exists in H as (t & It & E).
    destruct (split_spec v) as (NE & F & J). exists v, (split_on 44 v), t. auto 10.
Qed.

Lemma has_token_r tok values : reflect (lists_token fold_eqb tok values) (has_token tok values).
Proof. apply has_token_gen. Qed.
Lemma has_exact_token_r tok values : reflect (lists_token bytes_eqb tok values) (has_exact_token tok values).
Proof. apply has_token_gen. Qed.

Lemma reflect_and P Q p q : reflect P p -> reflect Q q -> reflect (P /\ Q) (p && q).
Proof. intros [|] [|]; constructor; tauto. Qed.

(* the code is a decision tree with four leaves; on the way to each, every test made stands for a token-list fact, and
   these facts admit the handler returned there and exclude the other three *)
Theorem dispatch_is_spec hs h : dispatch hs = h <-> dispatch_spec hs h.
Proof.
  unfold dispatch, dispatch_spec.
  destruct (reflect_and _ _ _ _ (has_token_r s_upgrade (hvalues s_connection hs)) (has_token_r s_websocket (hvalues s_upgrade_h hs))) as [W|W];
    [destruct (has_exact_token_r s_grpc_ws (hvalues s_swp hs)) as [C|C] | destruct (prefix_b s_grpc_web _)];
    destruct h; split; intros E; (discriminate E || reflexivity || intuition discriminate).
Qed.

Theorem dispatch_old_refuted : exists hs h, dispatch_spec hs h /\ dispatch_old hs <> h.
Proof.
  exists [(s_connection, [107;101;101;112;45;97;108;105;118;101;44;32;85;112;103;114;97;100;101]); (s_upgrade_h, s_websocket)], HWS.
  split; [apply dispatch_is_spec; vm_compute; reflexivity | vm_compute; discriminate].
Qed.

Theorem key_char_class c : valid_md_key_char c = true <->
  (48 <= c <= 57 \/ 97 <= c <= 122 \/ 65 <= c <= 90 \/ c = 95 \/ c = 45 \/ c = 46).
Proof. unfold valid_md_key_char, is_lower, is_upper, is_digit. lia. Qed.

Theorem value_char_class v : valid_md_value v = true <-> Forall (fun c => 32 <= c <= 126) v.
Proof. unfold valid_md_value. rewrite forallb_forall, Forall_forall. split; intros H c I; specialize (H c I); lia. Qed.

Section MDQuery.
  Variable param : bytes.

  Definition from_query (q : qvalues) (k v : bytes) : Prop :=
    exists qk vs, In (qk, vs) q /\ In v vs /\ is_md_entry param qk = true /\
                  valid_query_key (md_entry_key param qk) = true /\ valid_md_value v = true /\
                  k = lower (md_entry_key param qk).

  Definition qinv (q : qvalues) (m : md) : Prop :=
    forall k v, In v (md_lookup k m) -> from_query q k v.

  Lemma qinv_mono q q' m : (forall e, In e q -> In e q') -> qinv q m -> qinv q' m.
  Proof.
    intros S Inv k v L. destruct (Inv k v L) as (qk & vs & I & R). exists qk, vs. split; [apply S; exact I | exact R].
  Qed.

  Lemma qinv_append q qk vs v m : In (qk, vs) q -> In v vs -> is_md_entry param qk = true ->
    valid_query_key (md_entry_key param qk) = true -> qinv q m ->
    qinv q (if valid_md_value v then md_append (md_entry_key param qk) v m else m).
  Proof.
    intros I Iv E V Inv. destruct (valid_md_value v) eqn:VV; [|exact Inv]. intros k x L. rewrite lookup_append in L.
    destruct (bytes_eqb_spec k (lower (md_entry_key param qk))) as [->|]; [|apply Inv, L].
    apply in_app_or in L as [L|[<-|[]]]; [apply Inv, L|]. exists qk, vs. auto 10.
  Qed.

  (* [qinv q] speaks about the whole query, so it is an invariant of both folds: each step is taken with an entry of [q],
     each inner step with one of that entry's values *)
  Theorem query_md_entries q k v : In v (md_lookup k (query_md param q)) -> from_query q k v.
  Proof.
    revert k v. change (qinv q (query_md param q)). unfold query_md.
    apply (fold_left_inv_In _ (qinv q)); [|intros k v []].
    intros m [qk vs] Inv I. cbn [fst snd].
    destruct (is_md_entry param qk) eqn:E, (valid_query_key (md_entry_key param qk)) eqn:V; cbn [andb]; try exact Inv.
    apply (fold_left_inv_In _ (qinv q)); [|exact Inv].
    intros m' v Inv' Iv. apply (qinv_append q qk vs); assumption.
  Qed.

  Theorem query_rest_exact q kv :
    In kv (query_rest param q) <-> In kv q /\ is_md_entry param (fst kv) = false.
  Proof.
    unfold query_rest. rewrite filter_In. rewrite negb_true_iff. tauto.
  Qed.
End MDQuery.

Example dispatch_examples :
  dispatch [(s_connection, s_upgrade); (s_upgrade_h, s_websocket); (s_swp, [97;44;32] ++ s_grpc_ws)] = HGrpcWS /\
  dispatch [(s_content_type, [65] ++ skipn 1 s_grpc_web ++ [43;112;114;111;116;111;59;32;120])] = HGrpcWeb /\
  dispatch [] = HHTTP.
Proof. vm_compute. auto. Qed.
