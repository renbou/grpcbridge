From GB Require Import Model.Forward Proofs.ListFacts.
From RecordUpdate Require Import RecordSet.
Import RecordSetNotations.
From Coq Require Import Lia.
Open Scope Z_scope.

(* takes [H : In x l] apart along the structure of [l] (appends, maps, conditionals) *)
Ltac inv_in H :=
  repeat match type of H with
  | In _ (_ ++ _) => apply in_app_or in H; destruct H as [H|H]
  | In _ (map _ _) => apply in_map_iff in H; let x := fresh "x" in let E := fresh "E" in destruct H as (x & E & H)
  | In _ [] => destruct H
  | In _ (_ :: _) => destruct H as [H|H]
  | In _ (if ?c then _ else _) => let Q := fresh "Q" in destruct c eqn:Q
  | In _ (match ?x with _ => _ end) => first [is_var x; destruct x | let Q := fresh "Q" in destruct x eqn:Q]
  | False => destruct H
  end.

(* What each adapter call can return, with the state it leaves: the members of the model's [call_*] lists, said once *)
Section Calls.
Variable sc : script.

Variant res_in_recv (s : state) : initem -> state -> Prop :=
| ir_item it : nth_error (in_recv sc) (in_pos s) = Some it -> res_in_recv s it (s <| in_pos := S (in_pos s) |>)
| ir_ctx : in_aware sc && ctx_done s = true -> res_in_recv s (IErr (ctx_code s)) s.
Variant res_in_send (m : Z) (s : state) : option Z -> state -> Prop :=
| is_fail k e : in_send_fail sc = Some (k, e) -> (k <=? n_in_sends s)%nat = true ->
    res_in_send m s (Some e) (s <| n_in_sends := S (n_in_sends s) |>)
| is_ok : match in_send_fail sc with Some (k, _) => (k <=? n_in_sends s)%nat = false | None => True end ->
    res_in_send m s None (s <| n_in_sends := S (n_in_sends s) |> <| sent_in := sent_in s ++ [m] |>)
| is_ctx : in_aware sc && ctx_done s = true -> res_in_send m s (Some (ctx_code s)) s.
Variant res_open (s : state) : option Z -> state -> Prop :=
| op_ok : open_res sc = OpenOk -> res_open s None (s <| created := true |>)
| op_err e : open_res sc = OpenErr e -> res_open s (Some e) s
| op_ctx : out_aware sc && ctx_done s = true -> res_open s (Some (ctx_code s)) s.
Variant res_out_send (m : Z) (s : state) : sres -> state -> Prop :=
| os_closed : (0 <? closed s)%nat = true -> res_out_send m s (SErrR 1) s
| os_fail k r : (0 <? closed s)%nat = false -> out_send_fail sc = Some (k, r) -> (k <=? n_out_sends s)%nat = true ->
    res_out_send m s (match r with EEof => SEofR | ESt e => SErrR e end) (s <| n_out_sends := S (n_out_sends s) |>)
| os_ok : (0 <? closed s)%nat = false ->
    match out_send_fail sc with Some (k, _) => (k <=? n_out_sends s)%nat = false | None => True end ->
    res_out_send m s SOk (s <| n_out_sends := S (n_out_sends s) |> <| sent_out := sent_out s ++ [m] |>)
| os_ctx : (0 <? closed s)%nat = false -> out_aware sc && ctx_done s = true -> res_out_send m s (SErrR (ctx_code s)) s.
Variant res_out_recv (s : state) : outitem -> state -> Prop :=
| or_closed : (0 <? closed s)%nat = true -> res_out_recv s (OErr 1) s
| or_item need hc it : (0 <? closed s)%nat = false -> nth_error (out_recv sc) (out_pos s) = Some (need, hc, it) ->
    (need <=? length (sent_out s))%nat && (negb hc || (0 <? close_send s)%nat) = true ->
    res_out_recv s it (s <| out_pos := S (out_pos s) |>)
| or_ctx : (0 <? closed s)%nat = false -> out_aware sc && ctx_done s = true -> res_out_recv s (OErr (ctx_code s)) s.

Lemma in_recv_spec i s s1 : In (i, s1) (call_in_recv sc s) -> res_in_recv s i s1.
Proof. unfold call_in_recv. intros H. inv_in H; injection H as <- <-; constructor; assumption. Qed.
Lemma in_send_spec m r s s1 : In (r, s1) (call_in_send sc m s) -> res_in_send m s r s1.
Proof.
  unfold call_in_send. destruct (in_send_fail sc) as [[k e]|] eqn:F; intros H; inv_in H; injection H as <- <-;
    econstructor; first [eassumption | rewrite F; auto].
Qed.
Lemma open_spec r s s1 : In (r, s1) (call_open sc s) -> res_open s r s1.
Proof. unfold call_open. intros H. inv_in H; injection H as <- <-; constructor; assumption. Qed.
Lemma out_send_spec m r s s1 : In (r, s1) (call_out_send sc m s) -> res_out_send m s r s1.
Proof.
  unfold call_out_send. destruct (out_send_fail sc) as [[k r0]|] eqn:F; intros H; inv_in H; injection H as <- <-;
    econstructor; first [eassumption | rewrite F; auto].
Qed.
Lemma out_recv_spec o s s1 : In (o, s1) (call_out_recv sc s) -> res_out_recv s o s1.
Proof. unfold call_out_recv. intros H. inv_in H; injection H as <- <-; econstructor; eassumption. Qed.
End Calls.

(* O2I notes the headers at its first Recv, the trailers at its last *)
Definition hdr (first : bool) (s : state) : state := if first then s <| hdr_set := S (hdr_set s) |> else s.
Definition trl (s : state) : state := s <| trl_set := S (trl_set s) |>.

(* The tactics of an invariant proof, in the order in which they are called.
   [H : step sc s s'] ([step] is defined below) by cases on the program point and on the outcome of the adapter call made there *)
Ltac step_cases H :=
  destruct H;
  try match goal with
      | C : res_in_recv _ _ _ _ |- _ => destruct C
      | C : res_in_send _ _ _ _ _ |- _ => destruct C
      | C : res_open _ _ _ _ |- _ => destruct C
      | C : res_out_send _ _ _ _ _ |- _ => destruct C
      | C : res_out_recv _ _ _ _ |- _ => destruct C
      end.

(* ... and on the item / result / flag the step branches on.  To be called before the invariant is unfolded: afterwards
   every clause carries a copy of the step's [match] *)
Ltac case_vars :=
  unfold hdr, trl, is_eof_ferr;
  repeat (match goal with
          | |- context[match ?x with _ => _ end] => is_var x; destruct x
          | |- context[if client_streaming ?sc then _ else _] => destruct (client_streaming sc) eqn:?
          | |- context[if server_streaming ?sc then _ else _] => destruct (server_streaming sc) eqn:?
          end; cbv beta iota).

(* the premises of a step about program counters and slots, put to use *)
Ltac use_pcs :=
  repeat match goal with
  | Q : mp ?s = _ |- _ => rewrite Q in *; clear Q
  | Q : ip ?s = _ |- _ => rewrite Q in *; clear Q
  | Q : op ?s = _ |- _ => rewrite Q in *; clear Q
  | Q : islot ?s = _ |- _ => rewrite Q in *; clear Q
  | Q : oslot ?s = _ |- _ => rewrite Q in *; clear Q
  end.

(* the invariants are conjunctions of implications "program counters -> fact": use every clause whose premise holds *)
Ltac fwd :=
  repeat match goal with
  | K : ?P -> _, H : ?P |- _ => specialize (K H)
  | K : ?x = ?x -> _ |- _ => specialize (K eq_refl)
  | K : _ /\ _ |- _ => destruct K
  | K : _ \/ _ /\ False |- _ => destruct K as [K|[_ []]]
  end.
(* ... also those with a premise [pc <> pc'].  Where the program counter is not known the attempt fails, and failing is what
   costs: to be called for every case of a step, not again for every clause of the goal *)
Ltac fwd_neq :=
  fwd; repeat (match goal with K : ?a <> ?b -> _ |- _ =>
                 let N := fresh in assert (N : a <> b) by discriminate; specialize (K N); clear N end; fwd).

Section P.
  Variable sc : script.
  Notation Reach := (Reach sc).
  Notation next := (next sc).

  (* The atomic steps, one constructor per program point: the program counter of the thread that moves, the guard of the
     step and the result of its adapter call are the premises; every invariant below is proved by cases on this relation *)
  Inductive step (s : state) : state -> Prop :=
  | s_env k : cancel_called s = false -> fired s = CtxNone -> ctx_kind sc = k -> k <> CtxNone -> step s (s <| fired := k |>)
  | s_m0 : mp s = M0 -> step s (s <| mp := if client_streaming sc then MOpen else MURecv |>)
  | s_open r s1 : mp s = MOpen -> res_open sc s r s1 ->
      step s (match r with None => s1 <| ip := IRecvP |> <| mp := MSpawn |> | Some e => s1 <| mp := MDCancel (RErr e) |> end)
  | s_urecv i s1 : mp s = MURecv -> res_in_recv sc s i s1 ->
      step s (match i with IMsg m => s1 <| mp := MUOpen m |> | IEof => s1 <| mp := MDCancel (RErr 14) |> | IErr e => s1 <| mp := MDCancel (RErr e) |> end)
  | s_uopen m r s1 : mp s = MUOpen m -> res_open sc s r s1 ->
      step s (match r with None => s1 <| mp := MUSend m |> | Some e => s1 <| mp := MDCancel (RErr e) |> end)
  | s_usend m r s1 : mp s = MUSend m -> res_out_send sc m s r s1 ->
      step s (match r with SErrR e => s1 <| closed := S (closed s1) |> <| mp := MDCancel (RErr e) |> | _ => s1 <| mp := MUCloseSend |> end)
  | s_uclose : mp s = MUCloseSend -> step s (s <| close_send := S (close_send s) |> <| mp := MSpawn |>)
  | s_spawn : mp s = MSpawn -> step s (s <| op := if server_streaming sc then ORecvP true else OURecv1 |> <| mp := MSelect |>)
  | s_sel_ctx : mp s = MSelect -> ctx_done s = true -> step s (s <| mp := MDClose (RErr (ctx_code s)) |>)
  | s_sel_in f : mp s = MSelect -> islot s = Some f ->
      step s (if is_eof_ferr f then s <| islot := None |> <| close_send := S (close_send s) |>
              else s <| islot := None |> <| mp := MDClose (match f with FIn (ESt e) | FOut (ESt e) => RErr e | _ => RNil end) |>)
  | s_sel_out f : mp s = MSelect -> oslot s = Some f ->
      step s (s <| oslot := None |>
                <| mp := MDClose (match f with FIn (ESt e) | FOut (ESt e) => RErr e | FIn EEof | FOut EEof => RErr (-1) | FOk => RNil end) |>)
  | s_dclose r : mp s = MDClose r -> step s (s <| closed := S (closed s) |> <| mp := MDCancel r |>)
  | s_dcancel r : mp s = MDCancel r -> step s (s <| cancel_called := true |> <| mp := MDWait r |>)
  | s_dwait r : mp s = MDWait r -> wg s = 0%nat -> step s (s <| mp := MRet r |>)
  | s_irecv i s1 : ip s = IRecvP -> res_in_recv sc s i s1 ->
      step s (match i with IMsg m => s1 <| ip := ISendP m |> | IEof => s1 <| ip := IPut (FIn EEof) |> | IErr e => s1 <| ip := IPut (FIn (ESt e)) |> end)
  | s_isend m r s1 : ip s = ISendP m -> res_out_send sc m s r s1 ->
      step s (match r with SOk => s1 <| ip := IRecvP |> | SEofR => s1 <| ip := IPut (FOut EEof) |> | SErrR e => s1 <| ip := IPut (FOut (ESt e)) |> end)
  | s_iput f : ip s = IPut f -> islot s = None -> step s (s <| islot := Some f |> <| ip := IDone |>)
  | s_orecv first o s1 : op s = ORecvP first -> res_out_recv sc s o s1 ->
      step s (match o with
              | OMsg m => hdr first s1 <| op := OSendP m |>
              | OEof => trl (hdr first s1) <| op := OPut FOk |>
              | OErr e => trl (hdr first s1) <| op := OPut (FOut (ESt e)) |>
              end)
  | s_osend m r s1 : op s = OSendP m -> res_in_send sc m s r s1 ->
      step s (match r with None => s1 <| op := ORecvP false |> | Some e => s1 <| op := OPut (FIn (ESt e)) |> end)
  | s_ourecv1 o s1 : op s = OURecv1 -> res_out_recv sc s o s1 ->
      step s (match o with
              | OMsg m => s1 <| op := OURecv2 m |>
              | OEof => trl (hdr true s1) <| op := OPut (FOut (ESt 14)) |>
              | OErr e => trl (hdr true s1) <| op := OPut (FOut (ESt e)) |>
              end)
  | s_ourecv2 m o s1 : op s = OURecv2 m -> res_out_recv sc s o s1 ->
      step s (match o with
              | OMsg _ => hdr true s1 <| op := OUSend m |>
              | OEof => trl (hdr true s1) <| op := OUSend m |>
              | OErr e => trl (hdr true s1) <| op := OPut (FOut (ESt e)) |>
              end)
  | s_ousend m r s1 : op s = OUSend m -> res_in_send sc m s r s1 ->
      step s (match r with None => s1 <| op := OPut FOk |> | Some e => s1 <| op := OPut (FIn (ESt e)) |> end)
  | s_oput f : op s = OPut f -> oslot s = None -> step s (s <| oslot := Some f |> <| op := ODone |>).

  Lemma next_step s l s' : In (l, s') (next s) -> step s s'.
  Proof.
    intros H. unfold Forward.next, env_steps, main_steps, i2o_steps, o2i_steps in H.
    inv_in H; repeat match goal with E : (_, _) = (_, _) |- _ => injection E as ? ? end; subst;
      try match goal with x : (_ * state)%type |- _ => destruct x as [r s1]; cbn [fst snd] in * end;
      solve [econstructor; first [eassumption | discriminate | apply Nat.eqb_eq; eassumption
                                  | eauto using in_recv_spec, in_send_spec, open_spec, out_send_spec, out_recv_spec]].
  Qed.

  Lemma reach_ind (P : state -> Prop) :
    P init -> (forall s s', Reach s -> P s -> step s s' -> P s') -> forall s, Reach s -> P s.
  Proof. intros H0 HS s R. induction R; eauto using next_step. Qed.

  (* the structural invariant: who is running when *)
  Definition early (m : mpc) : bool :=
    match m with M0 | MOpen | MURecv | MUOpen _ | MUSend _ | MUCloseSend => true | _ => false end.
  Definition pre_o2i (m : mpc) : bool :=
    match m with M0 | MOpen | MURecv | MUOpen _ | MUSend _ | MUCloseSend | MSpawn => true | _ => false end.
  Definition waits (m : mpc) : bool := match m with MDWait _ | MRet _ => true | _ => false end.
  Definition isret (m : mpc) : bool := match m with MRet _ => true | _ => false end.
  Definition pre_created (m : mpc) : bool := match m with M0 | MOpen | MURecv | MUOpen _ => true | _ => false end.
  Definition post_close (m : mpc) : bool := match m with MDCancel _ | MDWait _ | MRet _ => true | _ => false end.
  Definition i_alive (i : ipc) : bool := match i with IIdle | IDone => false | _ => true end.
  Definition o_alive (o : opc) : bool := match o with OIdle | ODone => false | _ => true end.

  Definition Struct (s : state) : Prop :=
    (early (mp s) = true -> ip s = IIdle \/ (mp s = MOpen -> False) /\ False) /\
    (pre_o2i (mp s) = true -> op s = OIdle) /\
    (ip s <> IIdle -> client_streaming sc = true) /\ (mp s = MOpen -> client_streaming sc = true) /\
    (islot s <> None -> ip s = IDone) /\ (oslot s <> None -> op s = ODone) /\
    (waits (mp s) = true -> cancel_called s = true) /\
    (isret (mp s) = true -> i_alive (ip s) = false /\ o_alive (op s) = false) /\
    (pre_created (mp s) = true -> created s = false) /\
    (post_close (mp s) = true -> created s = true -> (1 <= closed s)%nat).

  Lemma struct_inv : forall s, Reach s -> Struct s.
  Proof.
    apply reach_ind.
    - unfold Struct; simpl. repeat split; auto; try discriminate; try congruence.
    - intros s s' _ (A & B & C & C2 & D & E & F & G & Hc & Ic) Hs. step_cases Hs; case_vars; unfold Struct; cbn; use_pcs; cbn in *; fwd_neq;
        repeat split; intros; auto; try discriminate; fwd; auto; try congruence; try lia.
      (* wg.Wait has passed: both pumps are at rest *)
      all: match goal with W : wg _ = 0%nat |- _ => unfold wg in W; destruct (ip s), (op s); (discriminate || reflexivity) end.
  Qed.

  Local Arguments Nat.mul : simpl never.
  Local Arguments Nat.add : simpl never.
  Local Arguments Nat.sub : simpl never.

  (* C02: a variant.  Every step strictly decreases [mu]; so every run is finite, of length <= mu init *)
  Definition mu_i (s : state) : nat :=
    match ip s with
    | IIdle => 2 * length (in_recv sc) + 6
    | IRecvP => 2 * (length (in_recv sc) - in_pos s) + 3
    | ISendP _ => 2 * (length (in_recv sc) - in_pos s) + 4
    | IPut _ => 2 | IDone => 0
    end.
  Definition mu_o (s : state) : nat :=
    match op s with
    | OIdle => 2 * length (out_recv sc) + 12
    | ORecvP _ => 2 * (length (out_recv sc) - out_pos s) + 3
    | OSendP _ => 2 * (length (out_recv sc) - out_pos s) + 4
    | OURecv1 => 9 | OURecv2 _ => 7 | OUSend _ => 5 | OPut _ => 2 | ODone => 0
    end.
  Definition mu_m (s : state) : nat :=
    match mp s with
    | M0 => 20 | MOpen => 19 | MURecv => 19 | MUOpen _ => 18 | MUSend _ => 17 | MUCloseSend => 16 | MSpawn => 15
    | MSelect => 14 | MDClose _ => 13 | MDCancel _ => 12 | MDWait _ => 11 | MRet _ => 10
    end.
  Definition mu_e (s : state) : nat :=
    if cancel_called s then 0 else match fired s with CtxNone => 1 | _ => 0 end.
  Definition mu (s : state) : nat :=
    (mu_e s + mu_m s + mu_i s + mu_o s + match islot s with Some _ => 1 | None => 0 end)%nat.

  (* a summand of [mu] that the step leaves as it is becomes a variable: neither [cbn] nor [lia] need look into it *)
  Ltac keep_part c t s := try (change (c t) with (c s); generalize (c s); intro).

  Theorem step_decreases s l s' : Struct s -> In (l, s') (next s) -> (mu s' < mu s)%nat.
  Proof.
    intros (A & B & _) Hs. apply next_step in Hs.
    step_cases Hs; case_vars;
      repeat match goal with Q : nth_error ?xs ?k = Some _ |- _ =>
        assert (k < length xs)%nat by (apply nth_error_Some; congruence); clear Q end;
      unfold mu;
      match goal with |- (mu_e ?t + _ + _ + _ + _ < mu_e ?u + _ + _ + _ + _)%nat =>
        keep_part mu_e t u; keep_part mu_m t u; keep_part mu_i t u; keep_part mu_o t u end;
      unfold mu_e, mu_m, mu_i, mu_o; cbn; use_pcs; cbn in A, B;
      (* a pump that Main has not started yet is idle *)
      try (destruct (A eq_refl) as [A'|[_ []]]; rewrite A'); try rewrite (B eq_refl);
      repeat match goal with Q : _ = _ |- _ => rewrite Q end; try match goal with k : ctxkind |- _ => destruct k end; (congruence || lia).
  Qed.

  (* a run of n steps from s needs n <= mu s *)
  Inductive Run : state -> nat -> state -> Prop :=
  | Run0 : forall s, Run s 0 s
  | RunS : forall s l s' n s'', In (l, s') (next s) -> Run s' n s'' -> Run s (S n) s''.
  Theorem runs_bounded s n s' : Reach s -> Run s n s' -> (n + mu s' <= mu s)%nat.
  Proof.
    intros R H. induction H as [|s l s1 n s2 Hs _ IH]; [lia|].
    pose proof (step_decreases _ _ _ (struct_inv s R) Hs). specialize (IH (RS sc _ _ _ R Hs)). lia.
  Qed.


  (* C01: the data invariant.  The section only scopes the Arguments settings below. *)
  Section DataInv.
  Lemma prefix_in_ex x : forall p l, firstn p l = map IMsg x -> exists k, x = firstn k (in_msgs l).
  Proof.
    induction x as [|m x IH]; intros p l H; [exists 0%nat; reflexivity|].
    destruct p, l as [|i l]; try discriminate. injection H as -> H. destruct (IH _ _ H) as [k ->]. exists (S k). reflexivity.
  Qed.

  Definition items (l : list (nat * bool * outitem)) : list outitem := map snd l.
  Lemma items_firstn p l : items (firstn p l) = firstn p (items l).
  Proof. unfold items. symmetry. apply firstn_map. Qed.
  Lemma items_nth tr p n b x : nth_error tr p = Some (n, b, x) -> nth_error (items tr) p = Some x.
  Proof. intros H. unfold items. rewrite nth_error_map, H. reflexivity. Qed.

  Lemma prefix_out_ex x : forall p tr, firstn p (items tr) = map OMsg x -> exists k, x = firstn k (out_msgs tr).
  Proof.
    induction x as [|m x IH]; intros p tr H; [exists 0%nat; reflexivity|].
    destruct p, tr as [|[[n b] it] tr]; try discriminate. injection H as -> H. destruct (IH _ _ H) as [k ->]. exists (S k). reflexivity.
  Qed.
  Lemma first_out_msg tr m rest : items tr = OMsg m :: rest -> exists k, [m] = firstn k (out_msgs tr).
  Proof. intros H. apply (prefix_out_ex [m] 1 tr). rewrite H. reflexivity. Qed.

  Definition pend_i (s : state) : list Z :=
    match ip s with ISendP m => [m] | IIdle => match mp s with MUOpen m | MUSend m => [m] | _ => [] end | _ => [] end.
  Definition pre_send (m : mpc) : bool := match m with M0 | MOpen | MURecv | MUOpen _ | MUSend _ => true | _ => false end.
  Definition live_i (s : state) : bool :=
    match ip s with IRecvP | ISendP _ => true | IIdle => pre_send (mp s) | _ => false end.
  Definition pend_o (s : state) : list Z :=
    match op s with OSendP m | OURecv2 m | OUSend m => [m] | _ => [] end.
  Definition live_o (s : state) : bool :=
    match op s with OIdle | ORecvP _ | OSendP _ | OURecv1 | OURecv2 _ => true | _ => false end.
  Definition unary_pre (o : opc) : bool := match o with OIdle | OURecv1 | OURecv2 _ | OUSend _ => true | _ => false end.
  Definition stream_pc (o : opc) : bool := match o with ORecvP _ | OSendP _ => true | _ => false end.

  Local Arguments firstn : simpl never.
  Local Arguments map : simpl never.
  Local Arguments app : simpl never.
  Local Arguments length : simpl never.

  Definition Data (s : state) : Prop :=
    (live_i s = true -> firstn (in_pos s) (in_recv sc) = map IMsg (sent_out s ++ pend_i s)) /\
    (exists k, sent_out s = firstn k (in_msgs (in_recv sc))) /\
    (ip s = IIdle -> pre_send (mp s) = true -> sent_out s = []) /\
    (ip s = IIdle -> (length (sent_out s) <= 1)%nat) /\
    (live_o s = true -> op s <> OIdle ->
       match op s with
       | OURecv2 _ => firstn (out_pos s) (items (out_recv sc)) = map OMsg (pend_o s)
       | _ => firstn (out_pos s) (items (out_recv sc)) = map OMsg (sent_in s ++ pend_o s)
       end) /\
    (exists k, sent_in s = firstn k (out_msgs (out_recv sc))) /\
    (unary_pre (op s) = true -> sent_in s = []) /\
    (match op s with OUSend m => exists rest, items (out_recv sc) = OMsg m :: rest | _ => True end) /\
    (server_streaming sc = false -> stream_pc (op s) = false /\ (length (sent_in s) <= 1)%nat) /\
    (server_streaming sc = true -> match op s with OURecv1 | OURecv2 _ | OUSend _ => False | _ => True end) /\
    (op s = OIdle -> out_pos s = 0%nat).

  (* the client pump's half of [Data] reads mp, ip, in_pos and sent_out only, the target pump's half op, out_pos and
     sent_in: a step that writes none of them keeps that half as it is *)
  Definition DataIn (s : state) : Prop :=
    (live_i s = true -> firstn (in_pos s) (in_recv sc) = map IMsg (sent_out s ++ pend_i s)) /\
    (exists k, sent_out s = firstn k (in_msgs (in_recv sc))) /\
    (ip s = IIdle -> pre_send (mp s) = true -> sent_out s = []) /\
    (ip s = IIdle -> (length (sent_out s) <= 1)%nat).
  Definition DataOut (s : state) : Prop :=
    (live_o s = true -> op s <> OIdle ->
       match op s with
       | OURecv2 _ => firstn (out_pos s) (items (out_recv sc)) = map OMsg (pend_o s)
       | _ => firstn (out_pos s) (items (out_recv sc)) = map OMsg (sent_in s ++ pend_o s)
       end) /\
    (exists k, sent_in s = firstn k (out_msgs (out_recv sc))) /\
    (unary_pre (op s) = true -> sent_in s = []) /\
    (match op s with OUSend m => exists rest, items (out_recv sc) = OMsg m :: rest | _ => True end) /\
    (server_streaming sc = false -> stream_pc (op s) = false /\ (length (sent_in s) <= 1)%nat) /\
    (server_streaming sc = true -> match op s with OURecv1 | OURecv2 _ | OUSend _ => False | _ => True end) /\
    (op s = OIdle -> out_pos s = 0%nat).
  Lemma data_halves s : Data s <-> DataIn s /\ DataOut s.
  Proof. unfold Data, DataIn, DataOut. tauto. Qed.
  Lemma data_in_frame s s' : mp s' = mp s -> ip s' = ip s -> in_pos s' = in_pos s -> sent_out s' = sent_out s -> DataIn s -> DataIn s'.
  Proof. unfold DataIn, live_i, pend_i. intros -> -> -> ->. exact (fun H => H). Qed.
  Lemma data_out_frame s s' : op s' = op s -> out_pos s' = out_pos s -> sent_in s' = sent_in s -> DataOut s -> DataOut s'.
  Proof. unfold DataOut, live_o, pend_o. intros -> -> ->. exact (fun H => H). Qed.

  Lemma data_inv : forall s, Reach s -> Data s.
  Proof.
    apply reach_ind.
    - unfold Data; cbn. repeat split; intros; auto; try discriminate; try (exists 0%nat; reflexivity); try lia.
    - intros s s' R Dt Hs. destruct (struct_inv s R) as (A & B & C & _).
      apply data_halves in Dt as [DI DO]. apply data_halves.
      pose proof DI as (D1 & D2 & D3 & D4). pose proof DO as (D5 & D6 & D7 & D8 & D9 & D10 & D11).
      unfold live_i, pend_i, live_o, pend_o in D1, D5.
      step_cases Hs; case_vars;
        (split; [try (refine (data_in_frame s _ _ _ _ _ DI); reflexivity) | try (refine (data_out_frame s _ _ _ _ DO); reflexivity)]);
        clear DI DO.
      (* a half whose variables the step wrote (mp counts for the client half) is checked clause by clause *)
      all: match goal with |- DataIn _ => clear D5 D6 D7 D8 D9 D10 D11 | |- DataOut _ => clear D1 D2 D3 D4 end;
           unfold DataIn, DataOut, live_i, pend_i, live_o, pend_o; cbn; use_pcs; cbn in *; fwd_neq; use_pcs; cbn in *;
           repeat split; intros; auto; try discriminate; fwd; auto; try congruence;
           rewrite ?app_nil_r in *; repeat match goal with K : ?x = [] |- _ => rewrite K in * end; cbn [app length] in *;
           eauto using prefix_in_ex, prefix_out_ex, first_out_msg, firstn_single;
           try (eapply (firstn_snoc IMsg); eassumption); try (eapply (firstn_snoc OMsg); [eapply items_nth|]; eassumption).
      (* Main starts O2I at position 0; the first unary response; the unary response once sent *)
      all: try (rewrite D11; reflexivity).
      all: try (apply (firstn_snoc OMsg _ _ _ []); [eapply items_nth|]; eassumption).
      all: destruct D8 as [rest D8]; exact (first_out_msg _ _ _ D8).
  Qed.

  End DataInv.

  Theorem requests_prefix s : Reach s -> exists k, sent_out s = firstn k (in_msgs (in_recv sc)).
  Proof. intros R. destruct (data_inv s R) as (_ & H & _). exact H. Qed.

  Theorem responses_prefix s : Reach s -> exists k, sent_in s = firstn k (out_msgs (out_recv sc)).
  Proof. intros R. destruct (data_inv s R) as (_ & _ & _ & _ & _ & H & _). exact H. Qed.

  Theorem unary_request_bound s : Reach s -> client_streaming sc = false -> (length (sent_out s) <= 1)%nat.
  Proof.
    intros R H. destruct (data_inv s R) as (_ & _ & _ & D4 & _). destruct (struct_inv s R) as (_ & _ & C & _).
    apply D4. destruct (ip s) eqn:E; try reflexivity; exfalso;
      (assert (X : client_streaming sc = true) by (apply C; discriminate)); congruence.
  Qed.

  Theorem unary_response_bound s : Reach s -> server_streaming sc = false -> (length (sent_in s) <= 1)%nat.
  Proof. intros R H. destruct (data_inv s R) as (_ & _ & _ & _ & _ & _ & _ & _ & D9 & _). apply D9, H. Qed.

  Theorem final_clean s r : Reach s -> mp s = MRet r ->
    cancel_called s = true /\ i_alive (ip s) = false /\ o_alive (op s) = false /\ (created s = true -> (1 <= closed s)%nat).
  Proof.
    intros R E. destruct (struct_inv s R) as (_ & _ & _ & _ & _ & _ & F & G & _ & I).
    rewrite E in *. cbn in *. destruct (G eq_refl). auto.
  Qed.

  Definition script_codes : list Z :=
    flat_map (fun i => match i with IErr e => [e] | _ => [] end) (in_recv sc) ++
    (match in_send_fail sc with Some (_, e) => [e] | None => [] end) ++
    (match open_res sc with OpenErr e => [e] | _ => [] end) ++
    (match out_send_fail sc with Some (_, ESt e) => [e] | _ => [] end) ++
    flat_map (fun x => match snd x with OErr e => [e] | _ => [] end) (out_recv sc).

  (* a status in flight is the target's / an adapter's (scripted), Unavailable for an unexpected EOF, Canceled (closed
     stream or cancelled context), or DeadlineExceeded - the latter ONLY if the deadline really fired ([k] = [fired s]) *)
  Definition just (k : ctxkind) (e : Z) : Prop :=
    In e script_codes \/ e = 14 \/ e = 1 \/ (e = 4 /\ k = CtxDeadline).
  Definition just_f (k : ctxkind) (f : ferr) : Prop :=
    match f with FIn (ESt e) | FOut (ESt e) => just k e | _ => True end.
  Definition just_r (k : ctxkind) (r : res) : Prop := match r with RErr e => just k e | RNil => True end.

  (* ... and O2I never reports io.EOF itself (Main would return it as the error) *)
  Definition Src (s : state) : Prop :=
    (match ip s with IPut f => just_f (fired s) f | _ => True end) /\
    (match op s with OPut f => just_f (fired s) f /\ is_eof_ferr f = false | _ => True end) /\
    (match islot s with Some f => just_f (fired s) f | None => True end) /\
    (match oslot s with Some f => just_f (fired s) f /\ is_eof_ferr f = false | None => True end) /\
    (match mp s with MDClose r | MDCancel r | MDWait r | MRet r => just_r (fired s) r | _ => True end).

  Lemma just_code k e : In e script_codes \/ e = 14 \/ e = 1 -> just k e.
  Proof. unfold just. tauto. Qed.
  Lemma ctx_code_just s : just (fired s) (ctx_code s).
  Proof. unfold just, ctx_code. destruct (fired s); auto. Qed.
  (* the context fires at most once: what was justified before stays justified *)
  Lemma just_fire k e : just CtxNone e -> just k e.
  Proof. unfold just. intuition discriminate. Qed.
  Lemma just_f_fire k f : just_f CtxNone f -> just_f k f.
  Proof. destruct f as [[|e]|[|e]|]; cbn; auto using just_fire. Qed.
  Lemma just_r_fire k r : just_r CtxNone r -> just_r k r.
  Proof. destruct r; cbn; auto using just_fire. Qed.

  Lemma in_recv_code p e : nth_error (in_recv sc) p = Some (IErr e) -> In e script_codes.
  Proof.
    intros H. unfold script_codes. apply in_or_app. left. apply in_flat_map. exists (IErr e).
    split; [eapply nth_error_In; eauto | left; reflexivity].
  Qed.
  Lemma out_recv_code p n b e : nth_error (out_recv sc) p = Some (n, b, OErr e) -> In e script_codes.
  Proof.
    intros H. unfold script_codes. do 4 (apply in_or_app; right). apply in_flat_map. exists (n, b, OErr e).
    split; [eapply nth_error_In; eauto | left; reflexivity].
  Qed.
  Lemma in_send_code k e : in_send_fail sc = Some (k, e) -> In e script_codes.
  Proof. intros H. unfold script_codes. apply in_or_app; right. apply in_or_app; left. rewrite H. left; reflexivity. Qed.
  Lemma open_code e : open_res sc = OpenErr e -> In e script_codes.
  Proof. intros H. unfold script_codes. do 2 (apply in_or_app; right). apply in_or_app; left. rewrite H. left; reflexivity. Qed.
  Lemma out_send_code k e : out_send_fail sc = Some (k, ESt e) -> In e script_codes.
  Proof. intros H. unfold script_codes. do 3 (apply in_or_app; right). apply in_or_app; left. rewrite H. left; reflexivity. Qed.

  Local Arguments just : simpl never.

  Lemma src_inv : forall s, Reach s -> Src s.
  Proof.
    apply reach_ind.
    - unfold Src; cbn; auto.
    - intros s s' _ (S1 & S2 & S3 & S4 & S5) Hs. step_cases Hs; case_vars; unfold Src; cbn; use_pcs; cbn in *.
      (* the context fires *)
      1: match goal with Q : fired _ = CtxNone |- _ => rewrite Q in * end; repeat split;
           [destruct (ip s) | destruct (op s) | destruct (islot s) | destruct (oslot s) | destruct (mp s)];
           intuition auto using just_f_fire, just_r_fire.
      (* a status moves from one place to the next, or is new: the context's, a scripted one, 14 or 1 *)
      all: repeat split; auto; try tauto; try apply ctx_code_just;
           try (apply just_code; eauto 6 using in_recv_code, out_recv_code, in_send_code, open_code, out_send_code).
      (* Main takes the target pump's report out of its slot: no EOF, by the clause about that slot *)
      all: destruct S4; discriminate.
  Qed.

  (* the status a call returns has a source; DeadlineExceeded in particular only if the deadline really fired
     (or the target / an adapter itself reported it) *)
  Theorem result_source s e : Reach s -> mp s = MRet (RErr e) ->
    In e script_codes \/ e = 14 \/ e = 1 \/ (e = 4 /\ fired s = CtxDeadline).
  Proof. intros R E. destruct (src_inv s R) as (_ & _ & _ & _ & S5). rewrite E in S5. exact S5. Qed.

  Theorem deadline_exceeded_means_deadline s : Reach s -> mp s = MRet (RErr 4) -> ~ In 4 script_codes -> fired s = CtxDeadline.
  Proof. intros R E N. destruct (result_source s 4 R E) as [H|[H|[H|[_ H]]]]; try discriminate; try contradiction. exact H. Qed.

  (* C02: progress.  With context-aware adapters, while the context is done or a pump's report is in its slot, some thread can move *)
  Definition thread_steps (s : state) := main_steps sc s ++ i2o_steps sc s ++ o2i_steps sc s.

  Hypothesis aware : in_aware sc = true /\ out_aware sc = true.

  (* a call of a context-aware adapter blocks only while the context is not done; a Send never blocks *)
  Lemma aware_blocked {A} (l : list A) x (b : bool) s : b = true -> l ++ (if b && ctx_done s then [x] else []) = [] -> ctx_done s = false.
  Proof. intros -> H. apply app_eq_nil in H as [_ H]. destruct (ctx_done s); [discriminate H | reflexivity]. Qed.
  Lemma in_recv_blocked s : call_in_recv sc s = [] -> ctx_done s = false.
  Proof. exact (aware_blocked _ _ _ s (proj1 aware)). Qed.
  Lemma open_blocked s : call_open sc s = [] -> ctx_done s = false.
  Proof. exact (aware_blocked _ _ _ s (proj2 aware)). Qed.
  Lemma out_recv_blocked s : call_out_recv sc s = [] -> ctx_done s = false.
  Proof. unfold call_out_recv. destruct (0 <? closed s)%nat; [discriminate | exact (aware_blocked _ _ _ s (proj2 aware))]. Qed.
  Lemma in_send_enabled m s : call_in_send sc m s <> [].
  Proof. unfold call_in_send. destruct (in_send_fail sc) as [[k e]|]; [destruct (k <=? n_in_sends s)%nat|]; discriminate. Qed.
  Lemma out_send_enabled m s : call_out_send sc m s <> [].
  Proof.
    unfold call_out_send. destruct (0 <? closed s)%nat; [discriminate|].
    destruct (out_send_fail sc) as [[k e]|]; [destruct (k <=? n_out_sends s)%nat|]; discriminate.
  Qed.

  (* once the context is done, a pump without a step is at rest *)
  Lemma i2o_blocked s : Struct s -> ctx_done s = true -> i2o_steps sc s = [] -> i_alive (ip s) = false.
  Proof.
    intros (_ & _ & _ & _ & D & _) C H. unfold i2o_steps in H. apply map_eq_nil in H.
    destruct (ip s) eqn:E; try reflexivity; exfalso.
    - apply map_eq_nil, in_recv_blocked in H. congruence.
    - apply map_eq_nil in H. exact (out_send_enabled _ _ H).
    - destruct (islot s); [discriminate (D ltac:(discriminate)) | discriminate H].
  Qed.
  Lemma o2i_blocked s : Struct s -> ctx_done s = true -> o2i_steps sc s = [] -> o_alive (op s) = false.
  Proof.
    intros (_ & _ & _ & _ & _ & D & _) C H. unfold o2i_steps in H. apply map_eq_nil in H.
    destruct (op s) eqn:E; try reflexivity; exfalso; try apply map_eq_nil in H;
      try (apply out_recv_blocked in H; congruence); try exact (in_send_enabled _ _ H).
    destruct (oslot s); [discriminate (D ltac:(discriminate)) | discriminate H].
  Qed.

  (* before the pumps run no slot is filled: the event can only be the context *)
  Lemma early_event s : Struct s -> early (mp s) = true ->
    (ctx_done s = true \/ islot s <> None \/ oslot s <> None) -> ctx_done s = true.
  Proof.
    intros (A & B & _ & _ & D & D2 & _) E [C|[S|S]]; [exact C | exfalso..].
    - apply D in S. destruct (A E) as [X|[_ []]]. congruence.
    - apply D2 in S. rewrite B in S; [discriminate|]. destruct (mp s); (discriminate || reflexivity).
  Qed.

  Theorem progress s : Struct s -> final s = false ->
    (ctx_done s = true \/ islot s <> None \/ oslot s <> None) -> thread_steps s <> [].
  Proof.
    intros St NF Ev H. unfold thread_steps in H. apply app_eq_nil in H as [Hm H]. apply app_eq_nil in H as [Hi Ho].
    (* suppose no thread can move; by cases on where Main is *)
    unfold main_steps in Hm. apply map_eq_nil in Hm. pose proof (early_event s St) as Ee. unfold final in NF.
    destruct (mp s) eqn:E; try discriminate; try apply map_eq_nil in Hm;
      (* MOpen, MURecv, MUOpen: the call would be blocked although the context is done *)
      try (first [apply open_blocked in Hm | apply in_recv_blocked in Hm]; rewrite Ee in Hm by auto; discriminate).
    - (* MUSend *) exact (out_send_enabled _ _ Hm).
    - (* MSelect: the context is not done and both slots are empty *)
      apply app_eq_nil in Hm as [Hc Hm]. apply app_eq_nil in Hm as [Hs1 Hs2].
      destruct Ev as [C|[S|S]]; [rewrite C in Hc | destruct (islot s) | destruct (oslot s)]; congruence.
    - (* MDWait: cancel() was called, so both pumps are at rest and wg.Wait returns *)
      pose proof St as (_ & _ & _ & _ & _ & _ & F & _). rewrite E in F.
      assert (C : ctx_done s = true) by (unfold ctx_done; rewrite (F eq_refl); reflexivity).
      apply (i2o_blocked s St C) in Hi. apply (o2i_blocked s St C) in Ho.
      unfold wg in Hm. destruct (ip s), (op s); discriminate.
  Qed.

  (* no reachable non-final state in which an event is pending is stuck.  Only a done context stays pending: once Main has
     taken the client pump's half-close out of its slot, a call without a deadline may wait for the target for ever *)
  Theorem no_deadlock_after_event s : Reach s -> final s = false ->
    (ctx_done s = true \/ islot s <> None \/ oslot s <> None) -> exists l s', In (l, s') (next s).
  Proof.
    intros R NF Ev. pose proof (progress s (struct_inv s R) NF Ev) as P.
    unfold thread_steps in P. unfold Forward.next.
    destruct (main_steps sc s ++ i2o_steps sc s ++ o2i_steps sc s) as [|[l s'] r] eqn:E; [congruence|].
    exists l, s'. apply in_or_app. right. left; reflexivity.
  Qed.
End P.

(* F1: with an incoming adapter that ignores the context (proxy.go before the repair) an idle client keeps the call
   from ever returning although the target has ended it: the schedule below leads ([run_sched_reach]) to a non-final state
   without any enabled step *)
Definition sc_idle_unaware : script :=
  {| client_streaming := true; server_streaming := true; in_recv := []; in_send_fail := None; open_res := OpenOk;
     out_send_fail := None; out_recv := [(0%nat, false, OErr 7)]; ctx_kind := CtxNone; in_aware := false; out_aware := true |}.

Theorem idle_client_unaware_stuck : exists s,
  run_sched sc_idle_unaware (repeat 0%nat 8) init = Some s /\ mp s = MDWait (RErr 7) /\ next sc_idle_unaware s = [].
Proof. eexists. split; [vm_compute; reflexivity|]. split; reflexivity. Qed.

Lemma run_sched_reach sc ks : forall s s', Reach sc s -> run_sched sc ks s = Some s' -> Reach sc s'.
Proof.
  induction ks as [|k ks IH]; intros s s' R H; simpl in H; [injection H as <-; exact R|].
  destruct (nth_error (next sc s) k) as [[l s1]|] eqn:E; [|discriminate].
  apply (IH s1 s'); [|exact H]. econstructor; [exact R|]. eapply nth_error_In; eauto.
Qed.

(* the same script with a context-aware incoming adapter: the idle client learns of the target's status *)
Definition sc_idle_aware : script :=
  {| client_streaming := true; server_streaming := true; in_recv := []; in_send_fail := None; open_res := OpenOk;
     out_send_fail := None; out_recv := [(0%nat, false, OErr 7)]; ctx_kind := CtxNone; in_aware := true; out_aware := true |}.
Example idle_client_aware_returns : exists s,
  run_sched sc_idle_aware (repeat 0%nat 11) init = Some s /\ mp s = MRet (RErr 7) /\ sent_in s = [] /\ (1 <= closed s)%nat.
Proof. eexists. split; [vm_compute; reflexivity|]. repeat split; vm_compute; auto. Qed.
