(* C20, the converse direction: everything the routing parser accepts IS a string of the template language, and the
   structure it returns is one that string derives from - not the only one: "/*" derives from [SWild] and from
   [SLit "*"], "/a:b" from the literal "a:b" and from "a" with the verb "b".  The language is given as a derivation
   relation on strings (Rseg / Rsegs / Rtemplate) that mentions neither tokens nor the parser. *)
From GB Require Import Model.Template Proofs.ByteSearch Proofs.TemplateParseProofs.
Open Scope N_scope.

(* Segment  = "*" | "**" | LITERAL | "{" FieldPath [ "=" Segments ] "}" ;  "{path}" is short for "{path=*}" *)
Fixpoint Rseg (s : seg) (txt : bytes) {struct s} : Prop :=
  match s with
  | SWild => txt = [c_star]
  | SDeep => txt = s_deep
  | SLit l => txt = l /\ l <> [] /\ is_literal l = true
  | SVar path segs =>
      path <> [] /\ forallb is_ident path = true /\
      ((segs = [SWild] /\ txt = c_lbrace :: join_with c_dot path ++ [c_rbrace]) \/
       exists txts,
         (fix Rl (l : list seg) (ts : list bytes) {struct l} : Prop :=
            match l, ts with
            | [], [] => True
            | x :: l', t :: ts' => Rseg x t /\ Rl l' ts'
            | _, _ => False
            end) segs txts /\ txts <> [] /\
         txt = c_lbrace :: join_with c_dot path ++ c_eq :: join_with c_slash txts ++ [c_rbrace])
  end.
Fixpoint Rsegs (l : list seg) (ts : list bytes) {struct l} : Prop :=
  match l, ts with
  | [], [] => True
  | x :: l', t :: ts' => Rseg x t /\ Rsegs l' ts'
  | _, _ => False
  end.

Lemma Rseg_var path segs txt : Rseg (SVar path segs) txt <->
  path <> [] /\ forallb is_ident path = true /\
  ((segs = [SWild] /\ txt = c_lbrace :: join_with c_dot path ++ [c_rbrace]) \/
   exists txts, Rsegs segs txts /\ txts <> [] /\
                txt = c_lbrace :: join_with c_dot path ++ c_eq :: join_with c_slash txts ++ [c_rbrace]).
Proof. reflexivity. Qed.

(* Template = "/" Segments [ ":" LITERAL ] ; "/" alone is the root; a trailing ":" is an empty verb *)
Definition Rtemplate (t : template) (s : bytes) : Prop :=
  is_literal (t_verb t) = true /\
  exists body,
    ((t_segs t = [SLit []] /\ body = []) \/
     (exists txts, Rsegs (t_segs t) txts /\ txts <> [] /\ body = join_with c_slash txts)) /\
    (s = c_slash :: body ++ c_colon :: t_verb t \/ (t_verb t = [] /\ s = c_slash :: body)).

Definition ne (t : bytes) : Prop := t <> [].

(* the tokenizer only cuts: the tokens concatenate to the input, and none is empty *)
Lemma scan_concat : forall s st cur, concat (scan st s cur) = rev cur ++ s.
Proof.
  induction s as [|c r IH]; intros st cur; cbn [scan].
  - destruct cur; cbn; [reflexivity | rewrite !app_nil_r; reflexivity].
  - destruct (is_delim st c).
    + rewrite concat_app. cbn [concat]. rewrite IH.
      destruct cur; cbn [concat app]; [reflexivity | rewrite app_nil_r; reflexivity].
    + rewrite IH. cbn [rev]. rewrite <- app_assoc. reflexivity.
Qed.

Lemma scan_ne : forall s st cur, Forall ne (scan st s cur).
Proof.
  induction s as [|c r IH]; intros st cur; cbn [scan].
  - destruct cur; [constructor | constructor; [apply rev_nonempty | constructor]].
  - destruct (is_delim st c); [|apply IH].
    apply Forall_app. split.
    + destruct cur; [constructor | constructor; [apply rev_nonempty | constructor]].
    + constructor; [discriminate | apply IH].
Qed.

Lemma gw_tokenize_inv path toks verb : gw_tokenize path = (toks, verb) ->
  (toks = scan 0 path [] ++ [eof] /\ verb = []) \/
  exists pre a, scan 0 path [] = pre ++ [a ++ c_colon :: verb] /\ toks = pre ++ match a with [] => [] | _ => [a] end ++ [eof].
Proof.
  destruct (scan 0 path []) as [|t0 tr] eqn:E.
  - pose proof (scan_concat path 0%nat []) as C. rewrite E in C. cbn in C. subst path. intros [= <- <-]. left. auto.
  - destruct (@exists_last _ (t0 :: tr) ltac:(discriminate)) as (pre & t & E'). rewrite E' in *.
    rewrite (gw_tokenize_snoc _ _ _ E). intros H. apply verb_cut_inv in H as [[-> ->]|(a & -> & ->)]; [left | right; eauto].
    rewrite <- app_assoc. auto.
Qed.

Lemma tokenize_sound path toks verb : gw_tokenize path = (toks, verb) -> Forall ne toks /\
  exists toks0, toks = toks0 ++ [eof] /\ (path = concat toks0 ++ c_colon :: verb \/ (verb = [] /\ path = concat toks0)).
Proof.
  intros H. pose proof (scan_concat path 0%nat []) as C. pose proof (scan_ne path 0%nat []) as N. cbn [rev app] in C.
  assert (NE : Forall ne [eof]) by (repeat constructor; discriminate).
  apply gw_tokenize_inv in H as [[-> ->]|(pre & a & E & ->)]; [split; [apply Forall_app|]; eauto|].
  rewrite E in C, N. apply Forall_app in N as [N1 _]. rewrite concat_app in C. cbn [concat] in C. split.
  - apply Forall_app. split; [exact N1|]. destruct a; [exact NE | constructor; [discriminate | exact NE]].
  - exists (pre ++ match a with [] => [] | _ => [a] end). split; [rewrite <- app_assoc; reflexivity|].
    left. rewrite <- C, concat_app. destruct a; cbn [concat app]; rewrite ?app_nil_r, <- ?app_assoc; reflexivity.
Qed.

Definition inner_sound (inner : list bytes -> option (list seg * list bytes)) : Prop :=
  forall toks segs rest, Forall ne toks -> inner toks = Some (segs, rest) ->
    exists used txts, toks = used ++ rest /\ Rsegs segs txts /\ txts <> [] /\ concat used = join_with c_slash txts.

Lemma segment_sound inner toks sg rest : inner_sound inner -> Forall ne toks ->
  gw_segment false inner toks = Some (sg, rest) -> exists used, toks = used ++ rest /\ Rseg sg (concat used).
Proof.
  intros IS NE H. apply gw_segment_spec in H. destruct H as [r|r|t r L _ _|p r2 P1 P2|p r2 segs r4 P1 P2 IN].
  - exists [[c_star]]. split; reflexivity.
  - exists [s_deep]. split; reflexivity.
  - exists [t]. inversion NE. cbn. rewrite app_nil_r. auto.
  - exists (tk c_lbrace :: toks_path p ++ [tk c_rbrace]). split; [cbn; rewrite <- app_assoc; reflexivity|].
    apply Rseg_var. split; [exact P1|]. split; [exact P2|]. left. split; [reflexivity|]. cbn. rewrite concat_app, concat_toks_path. reflexivity.
  - pose proof (Forall_after ne (tk c_lbrace :: toks_path p) _ r2 NE) as N2.
    destruct (IS _ _ _ N2 IN) as (usedi & txts & -> & RS & TN & CI).
    exists (tk c_lbrace :: toks_path p ++ tk c_eq :: usedi ++ [tk c_rbrace]). split; [cbn; rewrite <- !app_assoc; cbn; rewrite <- !app_assoc; reflexivity|].
    apply Rseg_var. split; [exact P1|]. split; [exact P2|]. right. exists txts. split; [exact RS|]. split; [exact TN|].
    cbn [concat tk app]. rewrite concat_app, concat_toks_path. cbn [concat tk app]. rewrite concat_app, CI. reflexivity.
Qed.

Theorem segments_sound : forall fuel, inner_sound (gw_segments false fuel).
Proof.
  induction fuel as [|f IH]; intros toks segs rest NE H; [discriminate|]. apply gw_segments_spec in H as (s & r & SG & H).
  destruct (segment_sound _ _ _ _ IH NE SG) as (used & E1 & RS).
  destruct H as [(-> & -> & _)|(r' & more & -> & MORE & ->)].
  - exists used, [concat used]. split; [exact E1|]. split; [cbn; auto|]. split; [discriminate|]. cbn. rewrite app_nil_r. reflexivity.
  - rewrite E1 in NE. apply Forall_after in NE as Nr'.
    destruct (IH _ _ _ Nr' MORE) as (used2 & txts2 & E2 & RS2 & TN2 & CU2).
    exists (used ++ [c_slash] :: used2), (concat used :: txts2). split; [rewrite E1, E2, <- app_assoc; reflexivity|].
    split; [cbn; auto|]. split; [discriminate|]. rewrite concat_app. cbn [concat]. rewrite CU2. destruct txts2; [congruence | reflexivity].
Qed.

Lemma gw_parse_inv s t : gw_parse false s = Some t ->
  exists path toks, s = c_slash :: path /\ existsb (N.eqb 0) path = false /\ gw_tokenize path = (toks, t_verb t) /\ is_literal (t_verb t) = true /\
    ((exists tr, toks = eof :: tr /\ t_segs t = [SLit []]) \/
     gw_segments false (S (length toks)) toks = Some (t_segs t, [eof])).
Proof.
  unfold gw_parse. destruct s as [|c path]; [discriminate|].
  destruct ((c =? c_slash) && negb (existsb (N.eqb 0) (c :: path))) eqn:G; [|discriminate].
  apply andb_prop in G as [Gc NONUL]. apply N.eqb_eq in Gc as ->. apply negb_true_iff in NONUL. change (existsb (N.eqb 0) path = false) in NONUL.
  destruct (gw_tokenize path) as [toks verb] eqn:TK. destruct (is_literal verb) eqn:LV; [|discriminate]. cbn [negb].
  destruct toks as [|t0 tr]; [discriminate|]. destruct (bytes_eqb_spec t0 eof) as [->|_].
  - intros [= <-]. exists path, (eof :: tr). eauto 10.
  - destruct (gw_segments false (S (length (t0 :: tr))) (t0 :: tr)) as [[segs [|e [|e2 rest]]]|] eqn:SG; try discriminate.
    destruct (bytes_eqb_spec e eof) as [->|_]; [|discriminate]. intros [= <-]. exists path, (t0 :: tr). auto 10.
Qed.

Theorem gw_parse_sound s t : gw_parse false s = Some t -> Rtemplate t s.
Proof.
  intros H. apply gw_parse_inv in H as (path & toks & -> & NONUL & TK & LV & H).
  destruct (tokenize_sound _ _ _ TK) as (NEall & toks0 & -> & PATH).
  split; [exact LV|]. destruct H as [(tr & E0 & ->)|SG].
  - (* the root: a first token of the path would be the end marker, a NUL *)
    destruct toks0 as [|x toks1]; [|injection E0 as -> _; destruct PATH as [P|[_ P]]; rewrite P in NONUL; discriminate NONUL].
    exists []. split; [left; auto|]. destruct PATH as [P|[V P]]; [left | right]; subst; auto.
  - destruct (segments_sound _ _ _ _ NEall SG) as (used & txts & E1 & RS & TN & CU).
    apply app_inj_tail in E1 as [<- _]. exists (join_with c_slash txts). split; [right; exists txts; auto|].
    rewrite <- CU. destruct PATH as [P|[V P]]; [left | right]; subst; auto.
Qed.

(* the theorem applies to concrete accepted strings (the hypothesis is met) - and gives a derivation of them *)
Definition ex_text : bytes :=  (* /v1/{name=shelves/*}/books:list *)
  [47;118;49;47;123;110;97;109;101;61;115;104;101;108;118;101;115;47;42;125;47;98;111;111;107;115;58;108;105;115;116].
Example ex_parsed : gw_parse false ex_text =
  Some {| t_segs := [SLit [118;49]; SVar [[110;97;109;101]] [SLit [115;104;101;108;118;101;115]; SWild]; SLit [98;111;111;107;115]];
          t_verb := [108;105;115;116] |}.
Proof. vm_compute. reflexivity. Qed.
Example ex_in_language : exists t, gw_parse false ex_text = Some t /\ Rtemplate t ex_text.
Proof. eexists. split; [exact ex_parsed | apply gw_parse_sound, ex_parsed]. Qed.
