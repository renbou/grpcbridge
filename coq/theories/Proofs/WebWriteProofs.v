(* F33 stated on the transition system of Model/WebWrite.v: the code as it is has a run that ends with a data frame behind the
   trailer, written after the handler returned (the witness is the schedule the C08 part slowwriter forces on the real
   bridge); with the write lock and the finished flag every run gives data frames followed by one trailer and no late write. *)
From GB Require Import Model.WebWrite.
Open Scope Z_scope.

(* the slowwriter schedule: the first response is in flight, the request fails, the handler finishes, the client takes the frame *)
Definition f33_schedule : list wact := [PumpSend; WriterBegin; ReqFails; PumpAbandon; HandlerTrailer; HandlerReturn; WriterEnd].

Theorem abandoned_send_refuted : exists s, wrun false f33_schedule w_init = Some s /\
  log s = [1; 0] /\ frames_ok (log s) = false /\ late s = 1%nat /\ returned s = true.
Proof. eexists. split; [vm_compute; reflexivity|]. repeat split. Qed.

(* the same schedule under the repaired discipline is not a run: the trailer has to wait for the write in progress *)
Example locked_blocks_the_witness : wrun true f33_schedule w_init = None.
Proof. vm_compute. reflexivity. Qed.

Definition all_data (l : list Z) : Prop := Forall (fun k => k = 0) l.
Definition winv (s : wst) : Prop :=
  late s = O /\
  if trailer s then wbusy s = false /\ exists d, all_data d /\ log s = d ++ [1] else all_data (log s) /\ returned s = false.

Lemma winv_init : winv w_init.
Proof. repeat split. constructor. Qed.

Lemma winv_step s a s' : winv s -> wstep true s a = Some s' -> winv s'.
Proof.
  unfold winv. intros [L I] H. revert I. destruct a; cbn [wstep andb] in H.
  - (* PumpSend *) destruct (_ && _); [|discriminate]. injection H as <-. exact (conj L).
  - (* WriterBegin *) destruct (pending s && negb (wbusy s)); [|discriminate]. destruct (trailer s); injection H as <-; cbn [late trailer wbusy log returned].
    + intros [_ D]. exact (conj L (conj eq_refl D)).
    + exact (conj L).
  - (* WriterEnd *) destruct (wbusy s); [|discriminate]. injection H as <-. cbn [late trailer wbusy log returned].
    destruct (trailer s); [intros [X _]; discriminate X|]. intros [AD ->]. split; [exact L|]. split; [|reflexivity].
    apply Forall_app. split; [exact AD | repeat constructor].
  - (* SendReturns *) destruct (_ && _); [|discriminate]. injection H as <-. cbn [late trailer wbusy log returned].
    destruct (trailer s); [intros [_ D]; exact (conj L (conj eq_refl D)) | exact (conj L)].
  - (* ReqFails *) injection H as <-. exact (conj L).
  - (* PumpAbandon *) destruct (_ && _); [|discriminate]. injection H as <-. exact (conj L).
  - (* PumpExit *) destruct (_ && _); [|discriminate]. injection H as <-. exact (conj L).
  - (* HandlerTrailer *) destruct (pump_done s); [|discriminate]. destruct (trailer s); [discriminate|]. destruct (wbusy s); [discriminate|]. injection H as <-.
    intros [AD _]. exact (conj L (conj eq_refl (ex_intro _ (log s) (conj AD eq_refl)))).
  - (* HandlerReturn *) destruct (trailer s); [|discriminate]. destruct (returned s); [discriminate|]. injection H as <-. exact (conj L).
Qed.

Lemma frames_ok_data_trailer d : all_data d -> frames_ok (d ++ [1]) = true.
Proof.
  induction 1 as [|k d -> _ IH]; [reflexivity|]. cbn [app frames_ok]. destruct (d ++ [1]) eqn:E; [destruct d; discriminate | exact IH].
Qed.

Theorem locked_runs_ok : forall l s, wrun true l w_init = Some s ->
  late s = O /\ (trailer s = true -> frames_ok (log s) = true) /\ (trailer s = false -> returned s = false).
Proof.
  assert (G : forall l s0 s, winv s0 -> wrun true l s0 = Some s -> winv s).
  { induction l as [|a l IH]; intros s0 s I H; cbn [wrun] in H; [injection H as <-; exact I|].
    destruct (wstep true s0 a) as [s1|] eqn:E; [|discriminate]. exact (IH s1 s (winv_step s0 a s1 I E) H). }
  intros l s H. destruct (G l w_init s winv_init H) as [L I]. split; [exact L|]. destruct (trailer s).
  - destruct I as (_ & d & AD & ->). split; [intros _; exact (frames_ok_data_trailer d AD) | discriminate].
  - split; [discriminate | intros _; exact (proj2 I)].
Qed.
