(* C11 for the pattern router, and what the proofs about the LTS of Model/RouteConc.v share: the one case analysis of
   thr_step (sstep, thr_step_sync), locks kept as "number of holders = state" (lock_step), and the per-watcher mutex
   discipline Mx, which holds for both kinds of router (the service router's proofs are in RouteConcSvcProofs.v). *)
From GB Require Import Model.RouteConc Proofs.Common.
From Coq Require Import Lia.
Open Scope Z_scope.

Local Open Scope nat_scope.

Lemma nth_replace_same {A} (l : list A) i x : (i < length l)%nat -> nth_error (replace_nth i x l) i = Some x.
Proof. revert i. induction l as [|a l IH]; intros [|i] H; simpl in *; try lia; [reflexivity|]. apply IH. lia. Qed.
Lemma nth_replace_other {A} (l : list A) i j x : i <> j -> nth_error (replace_nth i x l) j = nth_error l j.
Proof. revert i j. induction l as [|a l IH]; intros [|i] [|j] H; simpl; try reflexivity; try congruence. apply IH. congruence. Qed.
Lemma replace_length {A} (l : list A) i x : length (replace_nth i x l) = length l.
Proof. revert i. induction l as [|a l IH]; intros [|i]; simpl; auto. Qed.
Lemma In_replace {A} (l : list A) i x y : In y (replace_nth i x l) -> y = x \/ In y l.
Proof.
  revert i. induction l as [|a l IH]; intros [|i] H; simpl in *; auto.
  - destruct H as [H|H]; auto.
  - destruct H as [H|H]; auto. destruct (IH i H); auto.
Qed.
Lemma In_replace_keep {A} (l : list A) i t t' x : nth_error l i = Some t -> In x l -> x <> t -> In x (replace_nth i t' l).
Proof.
  revert i. induction l as [|a l IH]; intros [|i] N I D; simpl in *; try discriminate.
  - injection N as ->. destruct I as [->|I]; [congruence | right; exact I].
  - destruct I as [->|I]; [left; reflexivity | right; eapply IH; eauto].
Qed.

Lemma count_replace {A} (p : A -> bool) ts i t t' : nth_error ts i = Some t ->
  length (filter p (replace_nth i t' ts)) + Nat.b2n (p t) = length (filter p ts) + Nat.b2n (p t').
Proof.
  revert i. induction ts as [|a ts IH]; intros [|i] H; cbn in *; try discriminate.
  - injection H as ->. destruct (p t), (p t'); cbn; lia.
  - specialize (IH i H). destruct (p a); cbn; lia.
Qed.
Lemma count_pos {A} (p : A -> bool) ts t : In t ts -> p t = true -> 1 <= length (filter p ts).
Proof. intros I H. pose proof (proj2 (filter_In p t ts) (conj I H)) as X. destruct (filter p ts); [destruct X | cbn; lia]. Qed.

(* A lock with state [b] whose holders are the threads satisfying [p]: "number of holders = state" survives every step
   that changes the state by as much as it changes the stepping thread.  Both the per-watcher mutexes (is_holder w,
   mem_nat w held) and the table mutex (in_cs, tmu) are kept this way. *)
Lemma lock_step {A} (p : A -> bool) ts i t t' (b b' : bool) : nth_error ts i = Some t ->
  length (filter p ts) = Nat.b2n b -> Nat.b2n b' + Nat.b2n (p t) = Nat.b2n b + Nat.b2n (p t') ->
  length (filter p (replace_nth i t' ts)) = Nat.b2n b'.
Proof. intros N H C. pose proof (count_replace p ts i t t' N). lia. Qed.
Lemma lock_held {A} (p : A -> bool) ts t (b : bool) : length (filter p ts) = Nat.b2n b -> In t ts -> p t = true -> b = true.
Proof. intros H I P. pose proof (count_pos p ts t I P). destruct b; [reflexivity | cbn in H; lia]. Qed.
Lemma lock_unique {A} (p : A -> bool) ts (b : bool) x y : length (filter p ts) = Nat.b2n b ->
  In x ts -> In y ts -> p x = true -> p y = true -> x = y.
Proof.
  intros L Ix Iy Px Py. pose proof (proj2 (filter_In p x ts) (conj Ix Px)) as X. pose proof (proj2 (filter_In p y ts) (conj Iy Py)) as Y.
  destruct (filter p ts) as [|a [|c l]]; [destruct X | destruct X as [<-|[]], Y as [<-|[]]; reflexivity | destruct b; discriminate L].
Qed.

Lemma mem_nat_cons x y l : mem_nat x (y :: l) = Nat.eqb x y || mem_nat x l.
Proof. reflexivity. Qed.
Lemma mem_nat_filter_neq x w l : mem_nat x (filter (fun y => negb (Nat.eqb y w)) l) = negb (Nat.eqb x w) && mem_nat x l.
Proof.
  induction l as [|y l IH]; simpl; [rewrite andb_false_r; reflexivity|].
  destruct (Nat.eqb_spec y w) as [->|N]; simpl; rewrite IH; [destruct (Nat.eqb x w); reflexivity|].
  destruct (Nat.eqb_spec x y) as [->|]; [rewrite (proj2 (Nat.eqb_neq y w) N) | destruct (Nat.eqb x w)]; reflexivity.
Qed.

Lemma a_get_aget {A} k (l : list (bytes * A)) : a_get k l = aget k l.
Proof. induction l as [|[k' v] l IH]; cbn [a_get aget]; [|rewrite IH]; reflexivity. Qed.
Lemma a_get_del {A} k k' (l : list (bytes * A)) : a_get k (a_del k' l) = if bytes_eqb k k' then None else a_get k l.
Proof. rewrite !a_get_aget. exact (aget_adel k k' l). Qed.
Lemma a_get_set {A} k k' (v : A) l : a_get k (a_set k' v l) = if bytes_eqb k k' then Some v else a_get k l.
Proof. rewrite !a_get_aget. exact (aget_aset k k' v l). Qed.

Lemma steps_from_inv s : forall ts k i s', In (i, s') (steps_from k ts s) ->
  exists j t t' s1, i = (k + j)%nat /\ nth_error ts j = Some t /\ thr_step t s = Some (t', s1) /\
                    s' = set_threads s1 (replace_nth i t' (threads s)).
Proof.
  induction ts as [|a ts IH]; intros k i s' H; simpl in H; [destruct H|].
  apply in_app_or in H as [H|H].
  - destruct (thr_step a s) as [[t' s1]|] eqn:E; [|destruct H]. destruct H as [H|[]]. injection H as <- <-.
    exists 0%nat, a, t', s1. repeat split; auto.
  - destruct (IH (S k) i s' H) as (j & t & t' & s1 & L & H'). exists (S j), t, t', s1. split; [lia | exact H'].
Qed.

Definition tabs (s : cstate) := (stab s, sclaims s, sdescs s).

Lemma add_ctl w n d s : let s' := fst (upd_service_add w n d s) in
  kind s' = kind s /\ wmutex s' = wmutex s /\ closedw s' = closedw s /\ removed s' = removed s /\
  held s' = held s /\ tmu s' = tmu s /\ ptab s' = ptab s /\
  tabs s' = (fst (claim_phase n (cd_id d) w (cd_svcs d) (stab s) []), sclaims s, sdescs s).
Proof. unfold upd_service_add. destruct (claim_phase n (cd_id d) w (cd_svcs d) (stab s) []) as [t1 c1]. cbn. repeat split. Qed.

Lemma del_ctl w n d s : let s' := upd_service_del w n d s in
  kind s' = kind s /\ wmutex s' = wmutex s /\ closedw s' = closedw s /\ removed s' = removed s /\
  held s' = held s /\ tmu s' = tmu s /\ ptab s' = ptab s.
Proof. unfold upd_service_del. destruct (hand_over _ _ _ _ _) as [t3 c3]. cbn. repeat split. Qed.

Lemma rem_ctl w n s : let s' := remove_all w n s in
  kind s' = kind s /\ wmutex s' = wmutex s /\ closedw s' = closedw s /\ removed s' = w :: removed s /\
  held s' = held s /\ tmu s' = tmu s /\
  ptab s' = match kind s with KPattern => a_del n (ptab s) | KService => ptab s end.
Proof. unfold remove_all. destruct (match kind s with KService => _ | KPattern => _ end) as [t3 c3]. cbn. repeat split. Qed.

Definition is_holder (w : nat) (t : thr) : bool :=
  match t with TUpd w' _ _ pc => Nat.eqb w' w && (Nat.eqb pc 1 || Nat.eqb pc 2) | _ => false end.
Definition nh (ts : list thr) (w : nat) : nat := length (filter (is_holder w) ts).

Section PatternInv.
  Variable name : nat -> bytes.     (* the name each watcher was created for *)

  Definition wf_thr (t : thr) : Prop :=
    match t with TUpd w n _ _ => n = name w | TClose w n _ => n = name w | _ => True end.

  Record Inv (s : cstate) : Prop := {
    i_kind : kind s = KPattern; i_mx : wmutex s = true;
    i_wf : forall t, In t (threads s) -> wf_thr t;
    i_held : forall w, mem_nat w (held s) = true <-> nh (threads s) w = 1%nat;
    i_le : forall w, (nh (threads s) w <= 1)%nat;
    i_hold_live : forall w, (1 <= nh (threads s) w)%nat -> mem_nat w (removed s) = false;
    i_rem_closed : forall w, mem_nat w (removed s) = true -> mem_nat w (closedw s) = true;
    i_closing : forall w n, In (TClose w n 1) (threads s) -> mem_nat w (closedw s) = true;
    i_tab : forall n d w, a_get n (ptab s) = Some (d, w) -> mem_nat w (removed s) = false /\ n = name w;
    i_nopc2 : forall w n d pc, In (TUpd w n d pc) (threads s) -> (2 <= pc)%nat -> pc = 9%nat
  }.
End PatternInv.

(* What one step of a thread does to the locks, the flags and the tables.  The constructors name their premises, so that
   [destruct] needs no patterns. *)
Variant sstep (s s1 : cstate) : thr -> thr -> Prop :=
| s_acq w n d (Hw : can_lock w s = true) (Cw : mem_nat w (closedw s) = false)
    (Eh : held s1 = held (lock w s)) (Em : tmu s1 = tmu s) (Er : removed s1 = removed s) (Ec : closedw s1 = closedw s)
    (Ep : ptab s1 = ptab s) (Et : tabs s1 = tabs s) :
    sstep s s1 (TUpd w n d 0) (TUpd w n d 1)
| s_claim w n d (Ks : kind s = KService) (Tm : tmu s = false)
    (Eh : held s1 = held s) (Em : tmu s1 = true) (Er : removed s1 = removed s) (Ec : closedw s1 = closedw s)
    (Ep : ptab s1 = ptab s) (Et : tabs s1 = (fst (claim_phase n (cd_id d) w (cd_svcs d) (stab s) []), sclaims s, sdescs s)) :
    sstep s s1 (TUpd w n d 1) (TUpd w n d 2)
| s_rel w n d pc (Eh : held s1 = held (unlock w s)) (Er : removed s1 = removed s) (Ec : closedw s1 = closedw s)
    (Hp : (pc = 1 /\ tmu s1 = tmu s /\ ptab s1 = a_set n (cd_id d, w) (ptab s) /\ tabs s1 = tabs s) \/
          (pc = 2 /\ tmu s1 = false /\ ptab s1 = ptab s /\ tabs s1 = tabs (upd_service_del w n d s))) :
    sstep s s1 (TUpd w n d pc) (TUpd w n d 9)
| s_flag w n
    (Eh : held s1 = held s) (Em : tmu s1 = tmu s) (Er : removed s1 = removed s) (Ec : closedw s1 = w :: closedw s)
    (Ep : ptab s1 = ptab s) (Et : tabs s1 = tabs s) :
    sstep s s1 (TClose w n 0) (TClose w n 1)
| s_rem w n (Hw : can_lock w s = true) (Tm : tmu s = false)
    (Eh : held s1 = held s) (Em : tmu s1 = tmu s) (Er : removed s1 = w :: removed s) (Ec : closedw s1 = closedw s)
    (Ep : ptab s1 = match kind s with KPattern => a_del n (ptab s) | KService => ptab s end)
    (Et : tabs s1 = tabs (remove_all w n s)) :
    sstep s s1 (TClose w n 1) (TClose w n 9)
| s_skip t t'
    (Eh : held s1 = held s) (Em : tmu s1 = tmu s) (Er : removed s1 = removed s) (Ec : closedw s1 = closedw s)
    (Ep : ptab s1 = ptab s) (Et : tabs s1 = tabs s)
    (Hh : forall w, is_holder w t' = is_holder w t) (P2 : forall w n d, t <> TUpd w n d 2)
    (Hc : forall w n, t' <> TClose w n 1) (P9 : forall w n d pc, t' = TUpd w n d pc -> pc = 9) :
    sstep s s1 t t'.

Lemma thr_step_sync t s t' s1 : thr_step t s = Some (t', s1) ->
  wmutex s1 = wmutex s /\ kind s1 = kind s /\ (forall name, wf_thr name t -> wf_thr name t') /\ sstep s s1 t t'.
Proof.
  intros E. destruct t as [w n d pc|w n pc|q r|w n r]; cbn [thr_step] in E.
  - destruct pc as [|[|[|pc]]]; [ | | |discriminate].
    + destruct (mem_nat w (live s)); [|discriminate]. destruct (can_lock w s) eqn:CL; [|discriminate]. cbn [negb] in E.
      destruct (mem_nat w (closedw s)) eqn:Cw; injection E as <- <-; repeat split; auto.
      * apply s_skip; auto; try discriminate. intros ? ? ? ? [= _ _ _ <-]. reflexivity.
      * apply s_acq; auto.
    + destruct (tmu s) eqn:TMU; [discriminate|]. destruct (kind s) eqn:K; injection E as <- <-.
      * repeat split; auto. apply s_rel; auto.
      * destruct (add_ctl w n d s) as (A1 & A2 & A3 & A4 & A5 & A6 & A7 & A8).
        cbn [set_tmu wmutex kind]. repeat split; [congruence | congruence | auto |]. apply s_claim; auto.
    + injection E as <- <-. destruct (del_ctl w n d s) as (A1 & A2 & A3 & A4 & A5 & A6 & A7).
      cbn [set_tmu unlock wmutex kind]. repeat split; [congruence | congruence | auto |].
      apply s_rel; cbn [set_tmu unlock held removed closedw]; [congruence | congruence | congruence | auto].
  - destruct pc as [|[|pc]]; [ | |discriminate].
    + destruct (mem_nat w (live s)); [|discriminate]. cbn [negb] in E.
      destruct (mem_nat w (closedw s)) eqn:Cw; injection E as <- <-; repeat split; auto.
      * apply s_skip; auto; discriminate.
      * apply s_flag; reflexivity.
    + destruct (can_lock w s) eqn:CL; [|discriminate]. destruct (tmu s) eqn:TMU; [discriminate|]. injection E as <- <-.
      destruct (rem_ctl w n s) as (A1 & A2 & A3 & A4 & A5 & A6 & A7).
      repeat split; [congruence | congruence | auto |]. apply s_rem; auto.
  - destruct r; [discriminate|]. injection E as <- <-. repeat split; auto. apply s_skip; auto; discriminate.
  - destruct r; [discriminate|]. destruct (mem_b n (watched s)); injection E as <- <-; repeat split; auto; apply s_skip; auto; discriminate.
Qed.

Lemma cnext_sstep s i s' : In (i, s') (cnext s) -> exists t t' s1,
  nth_error (threads s) i = Some t /\ In t (threads s) /\ s' = set_threads s1 (replace_nth i t' (threads s)) /\
  wmutex s1 = wmutex s /\ kind s1 = kind s /\ (forall name, wf_thr name t -> wf_thr name t') /\ sstep s s1 t t'.
Proof.
  intros H. apply steps_from_inv in H as (j & t & t' & s1 & -> & N & E & ->). exists t, t', s1.
  split; [exact N|]. split; [exact (nth_error_In _ _ N)|]. split; [reflexivity|]. exact (thr_step_sync t s t' s1 E).
Qed.

Lemma sstep_pc s s1 t t' : sstep s s1 t t' -> forall w n d pc, t' = TUpd w n d pc ->
  pc = 9 \/ pc = 1 \/ (pc = 2 /\ kind s = KService).
Proof.
  intros S w0 n0 d0 pc0 E. destruct S; try discriminate E; [injection E as _ _ _ <-; auto .. | left; exact (P9 _ _ _ _ E)].
Qed.

Lemma held_lock w s : wmutex s = true -> held (lock w s) = w :: held s.
Proof. intros H. cbn [lock held]. rewrite H. reflexivity. Qed.
Lemma can_lock_free w s : wmutex s = true -> can_lock w s = true -> mem_nat w (held s) = false.
Proof. unfold can_lock. intros ->. cbn. apply negb_true_iff. Qed.
Lemma holder_self w n d pc : pc = 1 \/ pc = 2 -> is_holder w (TUpd w n d pc) = true.
Proof. intros [->| ->]; cbn; rewrite Nat.eqb_refl; reflexivity. Qed.

Section Mutex.
  Variable name : nat -> bytes.
  Notation wf_thr := (wf_thr name).

  Record Mx (s : cstate) : Prop := {
    x_mx : wmutex s = true;
    x_wf : forall t, In t (threads s) -> wf_thr t;
    x_lock : forall w, nh (threads s) w = Nat.b2n (mem_nat w (held s));
    x_live : forall w, mem_nat w (held s) = true -> mem_nat w (removed s) = false;
    x_rc : forall w, mem_nat w (removed s) = true -> mem_nat w (closedw s) = true;
    x_cl : forall w n, In (TClose w n 1) (threads s) -> mem_nat w (closedw s) = true
  }.

  Lemma Mx_holder s t w : Mx s -> In t (threads s) -> is_holder w t = true -> mem_nat w (held s) = true.
  Proof. intros M. exact (lock_held (is_holder w) _ t _ (x_lock s M w)). Qed.

  (* w, created for n, has not been removed: what the tables say of the watcher an entry was applied through *)
  Definition live_for (rm : list nat) (n : bytes) (w : nat) : Prop := mem_nat w rm = false /\ n = name w.

  Lemma live_for_other rm w n0 w0 : live_for rm n0 w0 -> n0 <> name w -> live_for (w :: rm) n0 w0.
  Proof.
    intros [R E] NE. split; [|exact E]. rewrite mem_nat_cons, R. destruct (Nat.eqb_spec w0 w) as [->|]; [congruence | reflexivity].
  Qed.

  (* a thread inside its update holds its watcher's mutex: the watcher is not removed *)
  Lemma Mx_inside s w n d pc : Mx s -> In (TUpd w n d pc) (threads s) -> pc = 1 \/ pc = 2 -> live_for (removed s) n w.
  Proof. intros M I P. split; [apply (x_live s M), (Mx_holder s _ w M I), holder_self, P | exact (x_wf s M _ I)]. Qed.

  Lemma Mx_step s i s' : Mx s -> In (i, s') (cnext s) -> Mx s'.
  Proof.
    intros M H. pose proof M as [MX WF LK LV RC CL].
    apply cnext_sstep in H as (t & t' & s1 & N & It & -> & MX1 & _ & W & S). rewrite MX in MX1.
    constructor; cbn [set_threads wmutex threads held removed closedw].
    - exact MX1.
    - intros t0 I0. apply In_replace in I0 as [->|I0]; auto.
    - (* number of holders = state of the mutex *)
      intros w0. apply (lock_step (is_holder w0) _ i t t' _ _ N (LK w0)).
      destruct S; rewrite Eh, ?(held_lock _ _ MX); cbn [unlock held]; try reflexivity.
      + (* lock: w was free, now held by this thread *)
        apply (can_lock_free _ _ MX) in Hw. rewrite mem_nat_cons, (Nat.eqb_sym w0 w). cbn [is_holder Nat.eqb orb andb].
        rewrite andb_false_r, andb_true_r. destruct (Nat.eqb_spec w w0) as [<-|]; [rewrite Hw|]; reflexivity.
      + (* unlock: this thread held w *)
        assert (Hh : is_holder w (TUpd w n d pc) = true) by (apply holder_self; tauto).
        rewrite mem_nat_filter_neq. destruct (Nat.eqb_spec w0 w) as [->|Nw]; cbn [negb andb].
        * rewrite Hh, (Mx_holder s _ w M It Hh). cbn [is_holder Nat.eqb orb]. rewrite andb_false_r. reflexivity.
        * cbn [is_holder]. rewrite (proj2 (Nat.eqb_neq w w0)) by congruence. reflexivity.
      + rewrite Hh. reflexivity.
    - (* a held mutex belongs to a watcher that is not removed *)
      intros w0. destruct S; rewrite Eh, Er, ?(held_lock _ _ MX); cbn [unlock held]; auto.
      + (* lock: the flag was not set, so w is not removed *)
        rewrite mem_nat_cons. destruct (Nat.eqb_spec w0 w) as [->|]; cbn [orb]; [intros _|apply LV].
        destruct (mem_nat w (removed s)) eqn:R; [rewrite (RC w R) in Cw; discriminate | reflexivity].
      + rewrite mem_nat_filter_neq. intros X. apply andb_prop in X as [_ X]. exact (LV w0 X).
      + (* removal: w is not held *)
        apply (can_lock_free _ _ MX) in Hw. intros X. rewrite mem_nat_cons, (LV w0 X).
        destruct (Nat.eqb_spec w0 w) as [->|]; [congruence | reflexivity].
    - (* removed watchers have the flag set: the closer had set it *)
      intros w0. destruct S; rewrite Er, Ec; auto.
      + intros X. rewrite mem_nat_cons, (RC w0 X). apply orb_true_r.
      + rewrite mem_nat_cons. destruct (Nat.eqb_spec w0 w) as [->|]; cbn [orb]; [intros _; exact (CL w n It) | apply RC].
    - (* a closer past its first step has set the flag *)
      intros w0 n0 I. apply In_replace in I as [I|I].
      + destruct S; try discriminate I; [injection I as -> _; rewrite Ec, mem_nat_cons, Nat.eqb_refl; reflexivity | destruct (Hc _ _ (eq_sym I))].
      + pose proof (CL _ _ I) as X. destruct S; rewrite Ec; auto. rewrite mem_nat_cons, X. apply orb_true_r.
  Qed.

  (* Inv and MxInv state the lock equation as three clauses *)
  Lemma Mx_intro s : wmutex s = true -> (forall t, In t (threads s) -> wf_thr t) ->
    (forall w, mem_nat w (held s) = true <-> nh (threads s) w = 1) -> (forall w, nh (threads s) w <= 1) ->
    (forall w, 1 <= nh (threads s) w -> mem_nat w (removed s) = false) ->
    (forall w, mem_nat w (removed s) = true -> mem_nat w (closedw s) = true) ->
    (forall w n, In (TClose w n 1) (threads s) -> mem_nat w (closedw s) = true) -> Mx s.
  Proof.
    intros MX WF HE LE HL RC CL. constructor; auto.
    - intros w. specialize (LE w). destruct (mem_nat w (held s)) eqn:X; cbn; [apply HE, X|].
      destruct (nh (threads s) w) as [|[|k]] eqn:Q; [reflexivity | | lia]. apply HE in Q. congruence.
    - intros w X. apply HL. apply HE in X. lia.
  Qed.
  Lemma Mx_elim s : Mx s ->
    (forall w, mem_nat w (held s) = true <-> nh (threads s) w = 1) /\ (forall w, nh (threads s) w <= 1) /\
    (forall w, 1 <= nh (threads s) w -> mem_nat w (removed s) = false).
  Proof.
    intros [MX WF LK LV RC CL]. split; [|split]; intros w; rewrite LK; destruct (mem_nat w (held s)) eqn:X; cbn;
      try lia; try (split; congruence); auto.
  Qed.

  Lemma step_preserves s i s' : Inv name s -> In (i, s') (cnext s) -> Inv name s'.
  Proof.
    intros [K MX WF HE LE HL RC CL TB P2] H.
    pose proof (Mx_intro s MX WF HE LE HL RC CL) as M. pose proof (Mx_step s i s' M H) as M'.
    destruct (Mx_elim s' M') as (HE' & LE' & HL'). destruct M' as [MX' WF' _ _ RC' CL'].
    apply cnext_sstep in H as (t & t' & s1 & _ & It & -> & _ & K1 & _ & S). pose proof (WF t It) as Wt.
    constructor; auto; cbn [set_threads kind threads ptab removed]; [congruence | |].
    - destruct S; try destruct Hp as [(-> & _ & Ep & _)|(_ & _ & Ep & _)]; rewrite Er, Ep; auto.
      + (* addTarget, by a thread that holds its watcher's mutex *)
        intros n0 d0 w0. rewrite a_get_set. destruct (bytes_eqb_spec n0 n) as [->|]; [|apply TB].
        intros [= <- <-]. exact (Mx_inside s _ _ _ _ M It (or_introl eq_refl)).
      + (* removeTarget: only the entry under the closer's own name goes, and only its watcher becomes removed *)
        rewrite K. intros n0 d0 w0. rewrite a_get_del. destruct (bytes_eqb_spec n0 n) as [->|NE]; [discriminate|]. intros G.
        apply live_for_other; [exact (TB n0 d0 w0 G) | cbn in Wt; congruence].
    - intros w n d pc I G. apply In_replace in I as [I|I]; [|eauto].
      destruct (sstep_pc _ _ _ _ S _ _ _ _ (eq_sym I)) as [->|[->|[-> K2]]]; [reflexivity | lia | congruence].
  Qed.

  Theorem inv_reach s0 s : Inv name s0 -> CReach s0 s -> Inv name s.
  Proof. intros I R. induction R; [exact I | eapply step_preserves; eauto]. Qed.

  Lemma Mx_init k live0 watched0 ts : (forall t, In t ts -> wf_thr t) -> (forall w, nh ts w = 0) ->
    (forall w n pc, In (TClose w n pc) ts -> pc = 0) -> Mx (cinit k true live0 watched0 ts).
  Proof.
    intros W Z C. constructor; cbn [cinit wmutex threads held removed closedw]; auto; try discriminate.
    intros w n I. apply C in I. discriminate.
  Qed.

  Lemma init_inv live0 watched0 ts : (forall t, In t ts -> wf_thr t) ->
    (forall w, nh ts w = 0%nat) -> (forall w n pc, In (TClose w n pc) ts -> pc = 0%nat) ->
    (forall w n d pc, In (TUpd w n d pc) ts -> pc = 0%nat) ->
    Inv name (cinit KPattern true live0 watched0 ts).
  Proof.
    intros W Z C U. pose proof (Mx_init KPattern live0 watched0 ts W Z C) as M.
    destruct (Mx_elim _ M) as (HE & LE & HL). destruct M as [MX WF _ _ RC CL]. constructor; auto; [discriminate|].
    intros w n d pc I G. apply U in I. lia.
  Qed.

  (* C11: in every reachable state, under every interleaving, no table entry was applied through a watcher whose
     Close has executed its removal: a removed target never comes back, so no later lookup is routed to it *)
  Theorem removed_stays_removed s0 s q n d w : Inv name s0 -> CReach s0 s ->
    lookup q s = Some (n, d, w) -> mem_nat w (removed s) = false.
  Proof.
    intros I R L. pose proof (inv_reach s0 s I R) as [K _ _ _ _ _ _ _ TB _].
    unfold lookup in L. rewrite K in L. destruct (a_get q (ptab s)) as [[d0 w0]|] eqn:G; [|discriminate].
    injection L as <- <- <-. apply (TB q d0 w0 G).
  Qed.
End Mutex.

Local Open Scope Z_scope.
(* F11: without the per-watcher mutex a removed target comes back (witness schedule) *)
Definition f11_threads : list thr :=
  [TUpd 1 [116;49]%N {| cd_id := 10; cd_svcs := [] |} 0; TClose 1 [116;49]%N 0; TLook [116;49]%N None].

Theorem removed_comes_back_without_mutex : exists s,
  crun [0; 1; 1; 0; 2]%nat (cinit KPattern false [1%nat] [[116;49]%N] f11_threads) = Some s /\
  mem_nat 1 (removed s) = true /\
  nth_error (threads s) 2 = Some (TLook [116;49]%N (Some (Some ([116;49]%N, 10, 1%nat)))).
Proof. eexists. split; [vm_compute; reflexivity|]. split; reflexivity. Qed.

(* with the mutex the same schedule is not even possible: Close cannot run its removal while the update is in flight *)
Example mutex_blocks_the_witness :
  crun [0; 1; 1]%nat (cinit KPattern true [1%nat] [[116;49]%N] f11_threads) = None.
Proof. vm_compute. reflexivity. Qed.
