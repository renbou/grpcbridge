(* C20: soundness of the strict parser's lookup structure (Model/Trie.v): whatever templates were added (trie_template_ok:
   no nested variables, no '/' in a verb; Proofs/TrieParsedProofs.v shows it of all the strict parser returns), a template
   returned for a path matches that path; before the repair of finding F30 it did not (trie_old_unsound). *)
From Coq Require Import Lia.
From GB Require Import Model.Trie Proofs.ByteSearch.
Local Open Scope nat_scope.

Fixpoint fmatch (fs : list fseg) (comps : list bytes) : bool :=
  match fs with
  | [] => match comps with [] => true | _ => false end
  | FWild :: r => match comps with _ :: cs => fmatch r cs | [] => false end
  | FLit l :: r => match comps with c :: cs => bytes_eqb c l && fmatch r cs | [] => false end
  | FDeep :: r => match r with [] => true | _ => false end
  end.
Definition strip (lastc v : bytes) : bytes := firstn (length lastc - length v - 1) lastc.
Definition tmatch (fs : list fseg) (v : bytes) (comps : list bytes) : bool :=
  match v with
  | [] => fmatch fs comps
  | _ => ends_with (last comps []) (c_colon :: v) && fmatch fs (removelast comps ++ [strip (last comps []) v])
  end.
Definition nonvar (i : seg) : bool := match i with SVar _ _ => false | _ => true end.
Definition nn (s : seg) : bool := match s with SVar _ inner => forallb nonvar inner | _ => true end.
Definition noslash (v : bytes) : bool := negb (existsb (N.eqb c_slash) v).

Lemma raw_inner_flat : forall inner k comps, forallb nonvar inner = true ->
  fmatch (flat_map flat_inner inner ++ k) comps = true ->
  exists rest, raw_inner inner comps = Some rest /\ fmatch k rest = true.
Proof.
  induction inner as [|s r IH]; intros k comps Hn H.
  - exists comps. split; [reflexivity | exact H].
  - destruct s as [| |l|p i]; simpl in Hn; try discriminate.
    + simpl in H. destruct comps as [|c cs]; [discriminate|]. simpl. apply IH; assumption.
    + simpl in H. destruct (flat_map flat_inner r ++ k) as [|x y] eqn:E; [|discriminate].
      apply app_eq_nil in E as [E1 E2]. subst k.
      destruct r as [|s' r']; [|destruct s'; simpl in *; discriminate].
      exists []. split; reflexivity.
    + simpl in H. destruct comps as [|c cs]; [discriminate|]. apply andb_true_iff in H as [H1 H2].
      simpl. rewrite H1. apply IH; assumption.
Qed.

Lemma raw_of_flat : forall segs comps, forallb nn segs = true -> fmatch (flatten segs) comps = true -> raw_match segs comps = true.
Proof.
  induction segs as [|a r IH]; intros comps Hn H.
  - destruct comps; simpl in *; auto.
  - simpl in Hn. apply andb_true_iff in Hn as [Ha Hr]. unfold flatten in H. simpl in H. fold (flatten r) in H.
    (* a segment outside a variable is matched like a variable holding just that segment *)
    set (inner := match a with SVar _ i => i | _ => [a] end).
    assert (Hi : forallb nonvar inner = true) by (destruct a; try reflexivity; exact Ha).
    replace (flat_seg a) with (flat_map flat_inner inner) in H by (destruct a; reflexivity).
    destruct (raw_inner_flat inner (flatten r) comps Hi H) as (rest & E & F).
    replace (raw_match (a :: r) comps) with (match raw_inner inner comps with Some rest => raw_match r rest | None => false end)
      by (destruct a; reflexivity).
    rewrite E. apply IH; assumption.
Qed.

Lemma lit_get_in l lits c : lit_get l lits = Some c -> In (l, c) lits.
Proof.
  induction lits as [|[k c'] r IH]; simpl; [discriminate|].
  destruct (bytes_eqb_spec k l) as [->|]; [intros [= ->]; left; reflexivity | right; auto].
Qed.
Lemma lit_upd_in l f lits k c : In (k, c) (lit_upd l f lits) ->
  In (k, c) lits \/ (k = l /\ exists c0, c = f c0 /\ (In (k, c0) lits \/ c0 = empty_node)).
Proof.
  induction lits as [|[k' c'] r IH]; simpl; [intros [[= <- <-]|[]]; eauto 6|].
  destruct (bytes_eqb_spec k' l) as [->|]; intros [[= <- <-]|H]; eauto 8. destruct (IH H) as [|(-> & c0 & -> & [|])]; eauto 8.
Qed.
Lemma verb_get_in v verbs i : verb_get v verbs = Some i -> In (v, i) verbs.
Proof.
  induction verbs as [|[k j] r IH]; simpl; [discriminate|].
  destruct (bytes_eqb_spec k v) as [->|]; [intros [= ->]; left; reflexivity | right; auto].
Qed.
Lemma verb_set_in v id verbs k i : In (k, i) (verb_set v id verbs) -> In (k, i) verbs \/ (k = v /\ i = id).
Proof.
  induction verbs as [|[k' j] r IH]; simpl; [intros [[= <- <-]|[]]; auto|].
  destruct (bytes_eqb_spec k' v) as [->|]; intros [[= <- <-]|H]; auto. destruct (IH H); auto.
Qed.

Lemma strip_cut a v : strip (a ++ c_colon :: v) v = a.
Proof. unfold strip. rewrite app_length. cbn [length]. replace (_ - _ - 1) with (length a) by lia. apply firstn_exact. Qed.

Lemma lio_spec ch : forall s i acc j, last_index_of ch s i acc = Some j ->
  acc = Some j \/ (i <= j /\ s = firstn (j - i) s ++ ch :: skipn (S (j - i)) s).
Proof.
  intros s i acc j. destruct (cut_last ch s) as [F|(a & b & -> & F)]; [rewrite (last_index_free _ _ _ _ F); auto | rewrite (last_index_cut _ _ F)].
  intros [= <-]. right. split; [apply Nat.le_add_r|]. rewrite Nat.add_comm, Nat.add_sub, firstn_exact, skipn_past. reflexivity.
Qed.
Lemma lio_split ch s j : last_index_of ch s 0 None = Some j -> s = firstn j s ++ ch :: skipn (S j) s.
Proof. intros H. apply last_index_some in H as (a & b & -> & _ & ->). rewrite firstn_exact, skipn_past. reflexivity. Qed.

Lemma ends_with_app a b : ends_with (a ++ b) b = true.
Proof. apply ends_with_iff. exists a. reflexivity. Qed.
Lemma ends_with_split s suf : ends_with s suf = true -> s = firstn (length s - length suf) s ++ suf.
Proof. intros H. apply ends_with_iff in H as [a ->]. rewrite app_length, Nat.add_sub, firstn_exact. reflexivity. Qed.

Lemma split_slash_nonnil s : forall cur, split_slash s cur <> [].
Proof. induction s as [|c r IH]; intros cur; simpl; [discriminate|]. destruct (N.eqb c c_slash); [discriminate | apply IH]. Qed.
Lemma split_noslash : forall t cur, noslash t = true -> split_slash t cur = [rev cur ++ t].
Proof.
  induction t as [|a t IH]; intros cur H.
  - simpl. rewrite app_nil_r. reflexivity.
  - unfold noslash in H. cbn [existsb] in H. apply negb_true_iff in H. apply orb_false_iff in H as [H1 H2].
    cbn [split_slash]. rewrite N.eqb_sym, H1. rewrite IH by (unfold noslash; rewrite H2; reflexivity).
    cbn [rev]. rewrite <- app_assoc. reflexivity.
Qed.
Lemma split_app_noslash : forall s t cur, noslash t = true ->
  split_slash (s ++ t) cur = removelast (split_slash s cur) ++ [last (split_slash s cur) [] ++ t].
Proof.
  induction s as [|a s IH]; intros t cur H.
  - simpl. apply split_noslash. exact H.
  - simpl. destruct (N.eqb a c_slash).
    + rewrite IH by exact H. pose proof (split_slash_nonnil s []) as NN. destruct (split_slash s []) as [|y l]; [contradiction|]. reflexivity.
    + apply IH. exact H.
Qed.
Lemma ends_with_last_comp p v : noslash v = true -> ends_with p (c_colon :: v) = true ->
  ends_with (last (split_slash p []) []) (c_colon :: v) = true.
Proof.
  intros Hv H. apply ends_with_iff in H as [a ->]. rewrite split_app_noslash by exact Hv. rewrite last_last. apply ends_with_app.
Qed.

Section Inv.
Variable ts : list template.
Definition owns (i : nat) (pre : list fseg) (v : bytes) : Prop :=
  exists t, nth_error ts i = Some t /\ flatten (t_segs t) = pre /\ t_verb t = v.
(* below a node reached by the edges [pre]: every template stored has exactly these flattened segments *)
Inductive NodeInv : list fseg -> node -> Prop :=
| NI : forall pre t lits verbs w m,
    (forall i, t = Some i -> owns i pre []) ->
    (forall v i, In (v, i) verbs -> owns i pre v /\ v <> []) ->
    (forall l c, In (l, c) lits -> NodeInv (pre ++ [FLit l]) c) ->
    (forall c, w = Some c -> NodeInv (pre ++ [FWild]) c) ->
    (forall c, m = Some c -> NodeInv (pre ++ [FDeep]) c) ->
    NodeInv pre (Node t lits verbs w m).

Lemma empty_inv pre : NodeInv pre empty_node.
Proof. constructor; intros; try discriminate; contradiction. Qed.
Lemma NodeInv_inv pre t lits verbs w m : NodeInv pre (Node t lits verbs w m) ->
  (forall i, t = Some i -> owns i pre []) /\ (forall v i, In (v, i) verbs -> owns i pre v /\ v <> []) /\
  (forall l c, In (l, c) lits -> NodeInv (pre ++ [FLit l]) c) /\
  (forall c, w = Some c -> NodeInv (pre ++ [FWild]) c) /\ (forall c, m = Some c -> NodeInv (pre ++ [FDeep]) c).
Proof. intros H. inversion H. auto. Qed.

Lemma insert_inv : forall fs verb id n pre, NodeInv pre n -> owns id (pre ++ fs) verb -> NodeInv pre (insert fs verb id n).
Proof.
  induction fs as [|f r IH]; intros verb id n pre Hn Ho; destruct n as [t lits verbs w m];
    destruct (NodeInv_inv _ _ _ _ _ _ Hn) as (Ht & Hv & Hl & Hw & Hm).
  - simpl. rewrite app_nil_r in Ho. destruct verb as [|b vb].
    + constructor; auto. intros i [= <-]. exact Ho.
    + constructor; auto. intros v i Hin. apply verb_set_in in Hin as [Hin | [-> ->]]; auto. split; [exact Ho | discriminate].
  - assert (STEP : forall c0, NodeInv (pre ++ [f]) c0 -> NodeInv (pre ++ [f]) (insert r verb id c0))
      by (intros c0 H0; apply IH; [exact H0 | rewrite <- app_assoc; exact Ho]).
    destruct f as [| |l]; simpl; constructor; auto.
    + intros c [= <-]. apply STEP. destruct w; [apply Hw; reflexivity | apply empty_inv].
    + intros c [= <-]. apply STEP. destruct m; [apply Hm; reflexivity | apply empty_inv].
    + intros k c Hin. apply lit_upd_in in Hin as [Hin | (-> & c0 & -> & [Hin | ->])]; [apply Hl, Hin | apply STEP, Hl, Hin | apply STEP, empty_inv].
Qed.

Lemma build_from_inv : forall suffix prefix n, ts = prefix ++ suffix -> NodeInv [] n -> NodeInv [] (build_from (length prefix) suffix n).
Proof.
  induction suffix as [|t r IH]; intros prefix n E Hn; simpl; [exact Hn|].
  rewrite <- (last_length prefix t). apply IH; [rewrite <- app_assoc; exact E|].
  apply insert_inv; [exact Hn|]. exists t. rewrite E, nth_error_app2, Nat.sub_diag by lia. auto.
Qed.
Lemma build_inv : NodeInv [] (build ts).
Proof. apply (build_from_inv ts [] empty_node); [reflexivity | apply empty_inv]. Qed.

Definition matched (pre : list fseg) (done : list bytes) : Prop :=
  forall k cs, fmatch k cs = true -> fmatch (pre ++ k) (done ++ cs) = true.
Lemma matched_all pre done : matched pre done -> fmatch pre done = true.
Proof. intros H. specialize (H [] [] eq_refl). rewrite !app_nil_r in H. exact H. Qed.
Lemma matched_lit pre done l : matched pre done -> matched (pre ++ [FLit l]) (done ++ [l]).
Proof. intros H k cs Hk. rewrite <- !app_assoc. apply H. simpl. rewrite bytes_eqb_refl. exact Hk. Qed.
Lemma matched_wild pre done c : matched pre done -> matched (pre ++ [FWild]) (done ++ [c]).
Proof. intros H k cs Hk. rewrite <- !app_assoc. apply H. simpl. exact Hk. Qed.

Variable orig : bytes.
Variable all : list bytes.
Hypothesis Horig : forall v, noslash v = true -> ends_with orig (c_colon :: v) = true -> ends_with (last all []) (c_colon :: v) = true.
Hypothesis Hts : forall i fs v, owns i fs v -> noslash v = true.

Definition good (i : nat) : Prop := exists fs v, owns i fs v /\ tmatch fs v all = true.

Definition suffix_verbs (n : node) : list nat := map snd (filter (fun kv => ends_with orig (c_colon :: fst kv)) (n_verbs n)).

Lemma verbs_pick pre n i : NodeInv pre n -> In i (suffix_verbs n) ->
  exists v, owns i pre v /\ v <> [] /\ ends_with (last all []) (c_colon :: v) = true.
Proof.
  intros Hn Hin. destruct n as [t lits verbs w m]. destruct (NodeInv_inv _ _ _ _ _ _ Hn) as (_ & Hv & _).
  apply in_map_iff in Hin as ([v j] & <- & Hf). apply filter_In in Hf as [Hf1 Hf2]. cbn [n_verbs fst snd] in *.
  destruct (Hv _ _ Hf1) as [Ho Hne]. exists v. repeat split; auto. apply Horig; [eapply Hts; exact Ho | exact Hf2].
Qed.

(* what the flag [wild] of dfs stands for: the edges walked match the path whatever its last component is, so the verb may
   still be part of that component *)
Definition any_last (pre : list fseg) : Prop := forall x, fmatch pre (removelast all ++ [x]) = true.

Lemma leaf_verbs pre n i : NodeInv pre n -> any_last pre -> In i (suffix_verbs n) -> good i.
Proof.
  intros Hn Ha Hin. destruct (verbs_pick _ _ _ Hn Hin) as ([|b v] & Ho & Hne & He); [contradiction|].
  exists pre, (b :: v). split; [exact Ho|]. unfold tmatch. rewrite He. apply Ha.
Qed.
Lemma leaf_verbs_wild pre0 done0 c n i : NodeInv (pre0 ++ [FWild]) n -> matched pre0 done0 -> all = done0 ++ [c] ->
  In i (suffix_verbs n) -> good i.
Proof. intros Hn Hm Ea. apply (leaf_verbs _ n i Hn). intros x. rewrite Ea, removelast_last. apply Hm. reflexivity. Qed.
Lemma leaf_verbs_multi pre done c rest m i : NodeInv (pre ++ [FDeep]) m -> matched pre done -> all = done ++ c :: rest ->
  In i (suffix_verbs m) -> good i.
Proof.
  intros Hn Hm Ea. apply (leaf_verbs _ m i Hn). intros x. rewrite Ea, removelast_app, <- app_assoc by discriminate. apply Hm. reflexivity.
Qed.

Lemma leaf_sound pre n wild i : NodeInv pre n -> fmatch pre all = true -> (wild = true -> any_last pre) ->
  In i (dfs_leaf false n orig wild) -> good i.
Proof.
  intros Hn Hm Ha Hin. unfold dfs_leaf in Hin. destruct (n_tmpl n) as [j|] eqn:Et.
  - destruct Hin as [<-|[]]. exists pre, []. split; [|exact Hm].
    destruct n as [t lits verbs w m]. exact (proj1 (NodeInv_inv _ _ _ _ _ _ Hn) _ Et).
  - rewrite orb_false_r in Hin. destruct wild; [|contradiction]. exact (leaf_verbs pre n i Hn (Ha eq_refl) Hin).
Qed.
Lemma leaf_tmpl pre n i : NodeInv pre n -> matched pre all -> n_tmpl n = Some i -> good i.
Proof using ts all.
  intros Hn Hm E. exists pre, []. split; [|exact (matched_all _ _ Hm)].
  destruct n as [t lits verbs w m]. exact (proj1 (NodeInv_inv _ _ _ _ _ _ Hn) _ E).
Qed.

(* [wild] matters at the leaf only *)
Lemma dfs_good : forall comps n pre done wild i,
  NodeInv pre n -> matched pre done -> done ++ comps = all ->
  (comps = [] -> wild = true -> any_last pre) ->
  In i (dfs false comps n orig wild) -> good i.
Proof.
  induction comps as [|c rest IH]; intros n pre done wild i Hn Hm Ea Hw Hin.
  - rewrite app_nil_r in Ea. subst done. exact (leaf_sound pre n wild i Hn (matched_all _ _ Hm) (Hw eq_refl) Hin).
  - destruct n as [t lits verbs w m]. destruct (NodeInv_inv _ _ _ _ _ _ Hn) as (_ & _ & Hl & Hww & Hmm).
    cbn [dfs n_lits n_wild n_multi n_verbs] in Hin.
    destruct (lit_get c lits) as [child|] eqn:El.
    { apply lit_get_in in El. apply (IH child (pre ++ [FLit c]) (done ++ [c]) false i); auto.
      - apply matched_lit. exact Hm.
      - rewrite <- app_assoc. exact Ea.
      - discriminate. }
    match type of Hin with In i (match ?bv with _ => _ end) => destruct bv as [id|] eqn:Ev end.
    { (* the last component is literal ++ ":" ++ verb, cut at its last colon *)
      destruct Hin as [<-|[]]. destruct rest as [|r1 r2]; [|discriminate].
      destruct (last_index_of c_colon c 0 None) as [j|] eqn:Ej; [|discriminate].
      apply last_index_some in Ej as (a & v & -> & _ & ->). rewrite firstn_exact, skipn_past in Ev.
      destruct (lit_get a lits) as [[t' lits' verbs' w' m']|] eqn:En; [|discriminate].
      apply lit_get_in, Hl in En. apply verb_get_in in Ev. destruct (proj1 (proj2 (NodeInv_inv _ _ _ _ _ _ En)) _ _ Ev) as [Ho Hne].
      exists (pre ++ [FLit a]), v. split; [exact Ho|].
      destruct v as [|b v]; [contradiction|]. unfold tmatch. rewrite <- Ea, last_last, removelast_last, strip_cut, ends_with_app.
      exact (matched_all _ _ (matched_lit _ _ a Hm)). }
    destruct w as [wn|].
    { apply (IH wn (pre ++ [FWild]) (done ++ [c]) true i); auto.
      - apply matched_wild. exact Hm.
      - rewrite <- app_assoc. exact Ea.
      - intros E _ x. rewrite <- Ea, E, removelast_last. apply Hm. reflexivity. }
    destruct m as [mn|]; [|contradiction]. apply (leaf_sound (pre ++ [FDeep]) mn true i); auto.
    + rewrite <- Ea. apply Hm. reflexivity.
    + intros _ x. rewrite <- Ea, removelast_app by discriminate. rewrite <- app_assoc. apply Hm. reflexivity.
Qed.
Lemma dfs_sound : forall comps n pre done wild i,
  NodeInv pre n -> matched pre done -> done ++ comps = all ->
  (comps = [] -> wild = true -> exists pre0 done0 c, pre = pre0 ++ [FWild] /\ done = done0 ++ [c] /\ matched pre0 done0) ->
  In i (dfs false comps n orig wild) -> good i.
Proof.
  intros comps n pre done wild i Hn Hm Ea Hw. apply (dfs_good comps n pre done wild i Hn Hm Ea).
  intros E W x. destruct (Hw E W) as (pre0 & done0 & c & -> & -> & Hm0). rewrite <- Ea, E, app_nil_r, removelast_last. apply Hm0. reflexivity.
Qed.
End Inv.

Definition trie_template_ok (t : template) : bool := no_nested t && noslash (t_verb t).

Theorem trie_find_sound : forall ts p i t,
  forallb trie_template_ok ts = true ->
  In i (find false (build ts) (c_slash :: p)) -> nth_error ts i = Some t ->
  template_matches t (c_slash :: p) = true.
Proof.
  intros ts p i t Hok Hin Hnth. change (In i (dfs false (split_slash p []) (build ts) p false)) in Hin.
  assert (OK : forall t, In t ts -> forallb nn (t_segs t) = true /\ noslash (t_verb t) = true).
  { intros t0 I0. rewrite forallb_forall in Hok. apply andb_true_iff, (Hok _ I0). }
  assert (Hts : forall i fs v, owns ts i fs v -> noslash v = true).
  { intros i0 fs v (t0 & E & _ & <-). exact (proj2 (OK _ (nth_error_In _ _ E))). }
  destruct (dfs_good ts p (split_slash p []) (ends_with_last_comp p) Hts (split_slash p []) (build ts) [] [] false i (build_inv ts))
    as (fs & v & (t0 & E & <- & <-) & Hm); auto; [intros k cs H; exact H | discriminate|].
  rewrite Hnth in E. injection E as <-. destruct (OK _ (nth_error_In _ _ Hnth)) as [Hnn _].
  unfold template_matches. change (N.eqb c_slash c_slash) with true. cbv iota.
  unfold tmatch in Hm. destruct (t_verb t) as [|b v]; [|apply andb_true_iff in Hm as [-> Hm]]; apply raw_of_flat; assumption.
Qed.

(* before the repair: the only template "/x:v:v" (literal "x:v", verb "v") is returned for the path "/x:v" *)
Theorem trie_old_unsound : exists ts p i t,
  forallb trie_template_ok ts = true /\ In i (find true (build ts) p) /\ nth_error ts i = Some t /\ template_matches t p = false.
Proof.
  exists [ {| t_segs := [SLit [120; 58; 118]%N]; t_verb := [118]%N |} ], [47; 120; 58; 118]%N, 0,
         {| t_segs := [SLit [120; 58; 118]%N]; t_verb := [118]%N |}.
  vm_compute. repeat split; auto.
Qed.

(* the hypotheses are met and the lookup finds something: "/a/{n}:get" and "/a/b" for the paths "/a/zz:get" and "/a/b" *)
Example trie_finds :
  let ts := [ {| t_segs := [SLit [97]%N; SVar [[110]%N] [SWild]]; t_verb := [103; 101; 116]%N |};
              {| t_segs := [SLit [97]%N; SLit [98]%N]; t_verb := [] |} ] in
  forallb trie_template_ok ts = true /\
  find false (build ts) [47; 97; 47; 122; 122; 58; 103; 101; 116]%N = [0] /\
  find false (build ts) [47; 97; 47; 98]%N = [1].
Proof. vm_compute. repeat split; reflexivity. Qed.
