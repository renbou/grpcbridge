(* C11 for the SERVICE router: the same interleaving model (Model/RouteConc.v, kind = KService, two-phase updateRoutes
   under the table mutex, handOver on release) - no lookup is ever routed to an entry applied through a watcher whose
   Close has executed its removal, under every interleaving. *)
From GB Require Import Model.RouteConc Proofs.Common Proofs.ListFacts Proofs.RouteConcProofs Proofs.SyncProofs.
From Coq Require Import Lia.
Open Scope Z_scope.

Definition is_p2 (t : thr) : bool := match t with TUpd _ _ _ 2 => true | _ => false end.
Definition np2 (ts : list thr) : nat := length (filter is_p2 ts).

Lemma np2_zero ts : np2 ts = 0%nat -> forall w n d, ~ In (TUpd w n d 2) ts.
Proof. intros Z w n d I. pose proof (count_pos is_p2 ts _ I eq_refl) as P. unfold np2 in Z. lia. Qed.

Lemma a_get_fold_del {A} released : forall (t : list (bytes * A)) k,
  a_get k (fold_left (fun t sv => a_del sv t) released t) = if mem_b k released then None else a_get k t.
Proof. intros t k. rewrite !a_get_aget. exact (aget_fold_adel released t k). Qed.
Lemma a_get_In {A} k (v : A) l : a_get k l = Some v -> In (k, v) l.
Proof. rewrite a_get_aget. apply aget_In. Qed.
Lemma In_a_insert {A} (x kv : bytes * A) : forall l, In x (a_insert kv l) -> x = kv \/ In x l.
Proof.
  intros l. replace (a_insert kv l) with (ains kv l); [apply In_ains|].
  induction l as [|kv' l IH]; cbn [a_insert ains]; [|rewrite IH]; reflexivity.
Qed.
Lemma mem_b_In k l : mem_b k l = true <-> In k l.
Proof. exact (mem_In k l). Qed.

Definition claims_of (n : bytes) (c : list (bytes * list bytes)) : list bytes :=
  match a_get n c with Some l => l | None => [] end.
Lemma claims_of_agetd n c : claims_of n c = agetd [] n c.
Proof. unfold claims_of. rewrite a_get_aget. symmetry. apply agetd_aget. Qed.
Lemma claims_of_append m n svc c : claims_of m (c_append n svc c) = if bytes_eqb m n then claims_of m c ++ [svc] else claims_of m c.
Proof. rewrite !claims_of_agetd. exact (agetd_aapp m n svc c). Qed.
Lemma claims_of_set m n l c : claims_of m (a_set n l c) = if bytes_eqb m n then l else claims_of m c.
Proof. rewrite !claims_of_agetd. exact (agetd_aset [] m n l c). Qed.
Lemma claims_of_del m n c : claims_of m (a_del n c) = if bytes_eqb m n then [] else claims_of m c.
Proof. rewrite !claims_of_agetd. exact (agetd_adel [] m n c). Qed.

Local Notation entry := (bytes * Z * nat)%type.

Lemma claim_phase_get n id w : forall svcs (t : list (bytes * entry)) cl svc e,
  a_get svc (fst (claim_phase n id w svcs t cl)) = Some e -> a_get svc t = Some e \/ (e = (n, id, w) /\ In svc svcs).
Proof.
  induction svcs as [|s r IH]; intros t cl svc e H; [left; exact H|]. cbn [claim_phase] in H.
  assert (K : forall t' cl', (a_get svc t' = Some e -> a_get svc t = Some e \/ e = (n, id, w) /\ s = svc) ->
              a_get svc (fst (claim_phase n id w r t' cl')) = Some e -> a_get svc t = Some e \/ e = (n, id, w) /\ In svc (s :: r)).
  { intros t' cl' F H'. apply IH in H' as [H'|[H1 H2]]; [apply F in H' as [H'|[H1 H2]]|]; cbn [In]; auto. }
  assert (S : a_get svc (a_set s (n, id, w) t) = Some e -> a_get svc t = Some e \/ e = (n, id, w) /\ s = svc).
  { rewrite a_get_set. destruct (bytes_eqb_spec svc s) as [->|]; [intros [= <-]|]; auto. }
  revert H. destruct (a_get s t) as [[[n' id'] w']|]; [destruct (bytes_eqb n' n)|]; apply K; auto.
Qed.

Lemma first_lister_in svc cands n id w : first_lister svc cands = Some (n, id, w) -> exists d, In (n, (d, w)) cands.
Proof.
  induction cands as [|[n0 [d0 w0]] cands IH]; cbn [first_lister]; [discriminate|].
  destruct (mem_b svc (cd_svcs d0)); [intros [= <- _ <-]; exists d0; left; reflexivity|].
  intros H. destruct (IH H) as (d & I). exists d. right. exact I.
Qed.

Definition ho_f (by_ : bytes) (ds : list (bytes * (cdesc * nat))) :=
  fun (tc : list (bytes * entry) * list (bytes * list bytes)) (svc : bytes) =>
    match first_lister svc (a_del by_ ds) with
    | Some (n, id, w) => match a_get svc (fst tc) with
                         | None => (a_set svc (n, id, w) (fst tc), c_append n svc (snd tc))
                         | Some _ => tc
                         end
    | None => tc
    end.
Lemma hand_over_eq released by_ t c ds : hand_over released by_ t c ds = fold_left (ho_f by_ ds) released (t, c).
Proof. reflexivity. Qed.

(* what a hand-over keeps: every entry is acceptable to [ok], and its service is in its owner's claim list *)
Definition claimed (ok : bytes -> nat -> Prop) (tc : list (bytes * entry) * list (bytes * list bytes)) : Prop :=
  forall svc n id w, a_get svc (fst tc) = Some (n, id, w) -> ok n w /\ In svc (claims_of n (snd tc)).

Lemma ho_f_claimed (ok : bytes -> nat -> Prop) by_ ds tc svc0 :
  (forall n d w, In (n, (d, w)) ds -> ok n w) -> claimed ok tc -> claimed ok (ho_f by_ ds tc svc0).
Proof.
  intros New P. unfold ho_f. destruct (first_lister svc0 (a_del by_ ds)) as [[[n0 id0] w0]|] eqn:FL; [|exact P].
  destruct (a_get svc0 (fst tc)); [exact P|]. intros svc n id w. cbn [fst snd]. rewrite a_get_set, claims_of_append.
  destruct (bytes_eqb_spec svc svc0) as [->|].
  - intros [= <- <- <-]. rewrite bytes_eqb_refl. split; [|apply in_or_app; right; left; reflexivity].
    apply first_lister_in in FL as (d0 & I0). apply In_adel in I0 as [I0 _]. eauto.
  - intros G. destruct (P _ _ _ _ G) as [O I]. split; [exact O|]. destruct (bytes_eqb n n0); [apply in_or_app; left|]; exact I.
Qed.

(* release [rel], then hand each released service to the first other lister: phase two of an update, and removal *)
Definition release (by_ : bytes) rel (t : list (bytes * entry)) c ds :=
  hand_over rel by_ (fold_left (fun t sv => a_del sv t) rel t) c ds.

Lemma del_tabs w n d s :
  let cl := held_by n d (stab s) in let out := filter (fun sv => negb (mem_b sv cl)) (claims_of n (sclaims s)) in
  let ds := a_set_sorted n (d, w) (sdescs s) in let r := release n out (stab s) (a_set n cl (sclaims s)) ds in
  tabs (upd_service_del w n d s) = (fst r, snd r, ds).
Proof. unfold upd_service_del, release, claims_of. cbv zeta. destruct (hand_over _ _ _ _ _). reflexivity. Qed.

Lemma rem_tabs w n s : kind s = KService ->
  let ds := a_del n (sdescs s) in let r := release n (claims_of n (sclaims s)) (stab s) (a_del n (sclaims s)) ds in
  tabs (remove_all w n s) = (fst r, snd r, ds).
Proof. intros K. unfold remove_all, release, claims_of. rewrite K. cbv zeta. destruct (hand_over _ _ _ _ _). reflexivity. Qed.

Lemma held_by_spec n d t svc : mem_b svc (held_by n d t) = true <->
  mem_b svc (cd_svcs d) = true /\ (exists id w, a_get svc t = Some (n, id, w)).
Proof.
  unfold held_by. rewrite !mem_b_In, filter_In. split; intros [H1 H2]; (split; [exact H1|]).
  - destruct (a_get svc t) as [[[n' id] w]|]; [|discriminate]. apply bytes_eqb_eq in H2. subst. eauto.
  - destruct H2 as (id & w & ->). apply bytes_eqb_refl.
Qed.

Section ServiceInv.
  Variable name : nat -> bytes.
  Notation wf_thr := (wf_thr name).

  Record MxInv (s : cstate) : Prop := {
    m_kind : kind s = KService; m_mx : wmutex s = true;
    m_wf : forall t, In t (threads s) -> wf_thr t;
    m_held : forall w, mem_nat w (held s) = true <-> nh (threads s) w = 1%nat;
    m_le : forall w, (nh (threads s) w <= 1)%nat;
    m_hold_live : forall w, (1 <= nh (threads s) w)%nat -> mem_nat w (removed s) = false;
    m_rem_closed : forall w, mem_nat w (removed s) = true -> mem_nat w (closedw s) = true;
    m_closing : forall w n, In (TClose w n 1) (threads s) -> mem_nat w (closedw s) = true;
    m_tmu : np2 (threads s) = (if tmu s then 1 else 0)%nat;
    m_pcs : forall w n d pc, In (TUpd w n d pc) (threads s) -> (3 <= pc)%nat -> pc = 9%nat
  }.

  (* the per-watcher mutexes as for the pattern router (Mx), the table mutex as in SyncProofs (m_tmu is mutex_inv) *)
  Lemma mx_step s i s' : MxInv s -> In (i, s') (cnext s) -> MxInv s'.
  Proof.
    intros [K MX WF HE LE HL RC CL TM PC] H.
    pose proof (Mx_step name s i s' (Mx_intro name s MX WF HE LE HL RC CL) H) as M'.
    destruct (Mx_elim name s' M') as (HE' & LE' & HL'). destruct M' as [MX' WF' _ _ RC' CL'].
    pose proof (mutex_step s i s' TM H) as TM'.
    apply cnext_sstep in H as (t & t' & s1 & _ & _ & -> & _ & K1 & _ & S).
    constructor; auto; cbn [set_threads kind threads]; [congruence|].
    intros w n d pc I G. apply In_replace in I as [I|I]; [|eauto].
    destruct (sstep_pc _ _ _ _ S _ _ _ _ (eq_sym I)) as [->|[->|[-> K2]]]; [reflexivity | lia | lia].
  Qed.

  Record TbInv (s : cstate) : Prop := {
    t_tab : forall svc n id w, a_get svc (stab s) = Some (n, id, w) -> mem_nat w (removed s) = false /\ n = name w;
    t_ds : forall n d w, In (n, (d, w)) (sdescs s) -> mem_nat w (removed s) = false /\ n = name w;
    t_claims : forall svc n id w, a_get svc (stab s) = Some (n, id, w) ->
       In svc (claims_of n (sclaims s)) \/ (exists w' d, In (TUpd w' n d 2) (threads s) /\ mem_b svc (cd_svcs d) = true)
  }.

  Notation live_for := (live_for name).
  (* the second alternative of t_claims *)
  Definition inflight (ts : list thr) (n svc : bytes) : Prop :=
    exists w d, In (TUpd w n d 2) ts /\ mem_b svc (cd_svcs d) = true.

  Lemma tb_elim s : TbInv s -> forall svc n id w, a_get svc (stab s) = Some (n, id, w) ->
    live_for (removed s) n w /\ (In svc (claims_of n (sclaims s)) \/ inflight (threads s) n svc).
  Proof. intros [T _ C] svc n id w G. split; [exact (T _ _ _ _ G) | exact (C _ _ _ _ G)]. Qed.

  Lemma tb_intro s1 ts t c ds : tabs s1 = (t, c, ds) ->
    (forall svc n id w, a_get svc t = Some (n, id, w) ->
       live_for (removed s1) n w /\ (In svc (claims_of n c) \/ inflight ts n svc)) ->
    (forall n d w, In (n, (d, w)) ds -> live_for (removed s1) n w) -> TbInv (set_threads s1 ts).
  Proof.
    unfold tabs. intros [= <- <- <-] E D.
    constructor; cbn [set_threads stab sclaims sdescs removed threads]; [|exact D|]; intros svc n id w G; apply (E _ _ _ _ G).
  Qed.

  (* after a release every entry is an old one that was not released, or a new one taken from the listings *)
  Lemma tb_release s1 ts by_ rel t c ds : tabs s1 = (let r := release by_ rel t c ds in (fst r, snd r, ds)) ->
    (forall svc n id w, a_get svc t = Some (n, id, w) -> ~ In svc rel -> live_for (removed s1) n w /\ In svc (claims_of n c)) ->
    (forall n d w, In (n, (d, w)) ds -> live_for (removed s1) n w) -> TbInv (set_threads s1 ts).
  Proof.
    intros Et Old New. apply (tb_intro _ _ _ _ _ Et); [|exact New].
    assert (P : claimed (live_for (removed s1)) (release by_ rel t c ds)).
    { unfold release. rewrite hand_over_eq.
      apply fold_left_inv_In; [intros; apply ho_f_claimed; auto|].
      intros svc n id w. cbn [fst snd]. rewrite a_get_fold_del. destruct (mem_b svc rel) eqn:MR; [discriminate|].
      intros G. apply (Old _ _ _ _ G). rewrite <- mem_b_In. congruence. }
    intros svc n id w G. destruct (P _ _ _ _ G). auto.
  Qed.

  (* old entries keep their reason when the stepping thread was not in phase two *)
  Lemma tb_keep s i t t' : TbInv s -> nth_error (threads s) i = Some t -> (forall w n d, t <> TUpd w n d 2) ->
    forall svc n id w, a_get svc (stab s) = Some (n, id, w) ->
      live_for (removed s) n w /\ (In svc (claims_of n (sclaims s)) \/ inflight (replace_nth i t' (threads s)) n svc).
  Proof.
    intros TI N P svc n id w G. destruct (tb_elim s TI _ _ _ _ G) as [L [H|(w' & d & I & M)]]; [auto|].
    split; [exact L|]. right. exists w', d. split; [|exact M]. eapply In_replace_keep; eauto.
  Qed.

  Lemma tb_step s i s' : MxInv s -> TbInv s -> In (i, s') (cnext s) -> TbInv s'.
  Proof.
    intros [K MX WF HE LE HL RC CL TM PC] TI H. pose proof (Mx_intro name s MX WF HE LE HL RC CL) as M.
    pose proof (tb_elim s TI) as E. pose proof (t_ds s TI) as D.
    apply cnext_sstep in H as (t & t' & s1 & N & It & -> & _ & _ & _ & S). pose proof (tb_keep s i t t' TI N) as FR.
    destruct S; try destruct Hp as [(-> & _ & _ & Et)|(-> & _ & _ & Et)].
    (* the steps that leave the tables alone: s_acq, s_rel by the pattern router, s_flag, s_skip *)
    1, 3, 5, 7: apply (tb_intro _ _ _ _ _ Et); rewrite Er; [apply FR; (discriminate || assumption) | exact D].
    - (* phase one: every new entry belongs to the update in flight *)
      apply (tb_intro _ _ _ _ _ Et); rewrite Er; [|exact D].
      intros svc n0 id0 w0 G. apply claim_phase_get in G as [G|[[= -> -> ->] I]]; [apply (FR ltac:(discriminate) _ _ _ _ G)|].
      split; [exact (Mx_inside name s _ _ _ _ M It (or_introl eq_refl))|]. right. exists w, d. split; [|apply mem_b_In, I].
      apply nth_error_In with (n := i), nth_replace_same, nth_error_Some. congruence.
    - (* phase two: an entry that stays was claimed by its owner before, or is listed by this very update *)
      pose proof (Mx_inside name s _ _ _ _ M It (or_intror eq_refl)) as Lw.
      apply (tb_release _ _ _ _ _ _ _ (eq_trans Et (del_tabs w n d s))); rewrite Er.
      + intros svc n0 id0 w0 G NO. destruct (E _ _ _ _ G) as [L [H|(w' & d' & I' & M')]]; (split; [exact L|]); rewrite claims_of_set.
        * destruct (bytes_eqb_spec n0 n) as [->|]; [|exact H]. apply mem_b_In.
          destruct (mem_b svc (held_by n d (stab s))) eqn:MC; [reflexivity|]. destruct NO. apply filter_In. rewrite MC. auto.
        * assert (X : TUpd w' n0 d' 2 = TUpd w n d 2).
          { apply (lock_unique is_p2 (threads s) (tmu s)); auto. }
          injection X as -> -> ->. rewrite bytes_eqb_refl. apply mem_b_In, held_by_spec. eauto.
      + intros n0 d0 w0 I0. apply In_a_insert in I0 as [[= -> -> ->]|I0]; [exact Lw|]. apply In_adel in I0 as [I0 _]. exact (D _ _ _ I0).
    - (* removal: only the closer's watcher becomes removed, and everything under its name goes *)
      rewrite Tm in TM. pose proof (WF _ It) as Wt. cbn in Wt.
      apply (tb_release _ _ _ _ _ _ _ (eq_trans Et (rem_tabs w n s K))); rewrite Er.
      + intros svc n0 id0 w0 G NO. destruct (E _ _ _ _ G) as [L [H|(w' & d' & I' & _)]]; [|destruct (np2_zero _ TM _ _ _ I')].
        assert (NE : n0 <> n) by (intros ->; exact (NO H)).
        split; [apply live_for_other; congruence|]. rewrite claims_of_del, (proj2 (bytes_eqb_neq n0 n) NE). exact H.
      + intros n0 d0 w0 I0. apply In_adel in I0 as [I0 NE]. apply live_for_other; [exact (D _ _ _ I0) | congruence].
  Qed.

  Theorem svc_inv_reach s0 s : MxInv s0 -> TbInv s0 -> CReach s0 s -> MxInv s /\ TbInv s.
  Proof.
    intros M T R. induction R as [|s i s' R IH H]; [auto|]. destruct IH as [M' T'].
    split; [eapply mx_step; eauto | eapply tb_step; eauto].
  Qed.

  Lemma svc_init_inv live0 watched0 ts : (forall t, In t ts -> wf_thr t) ->
    (forall w, nh ts w = 0%nat) -> (forall w n pc, In (TClose w n pc) ts -> pc = 0%nat) ->
    (forall w n d pc, In (TUpd w n d pc) ts -> pc = 0%nat) ->
    MxInv (cinit KService true live0 watched0 ts) /\ TbInv (cinit KService true live0 watched0 ts).
  Proof.
    intros W Z C U. pose proof (Mx_init name KService live0 watched0 ts W Z C) as M.
    destruct (Mx_elim name _ M) as (HE & LE & HL). destruct M as [MX WF _ _ RC CL]. split.
    - constructor; auto; cbn [cinit threads tmu].
      + unfold np2. rewrite (proj2 (filter_nil is_p2 ts)); [reflexivity|].
        intros [w n d pc| | |] I; try reflexivity. rewrite (U _ _ _ _ I). reflexivity.
      + intros w n d pc I G. apply U in I. lia.
    - constructor; cbn [stab sdescs sclaims removed threads cinit]; [discriminate | intros n d w [] | discriminate].
  Qed.

  (* C11, service router: in every reachable state, under every interleaving of updates (both phases), removals with
     hand-over, lookups and re-watches, no service is routed through an entry applied by a watcher whose Close has
     executed its removal *)
  Theorem svc_removed_stays_removed s0 s q n d w : MxInv s0 -> TbInv s0 -> CReach s0 s ->
    lookup q s = Some (n, d, w) -> mem_nat w (removed s) = false.
  Proof.
    intros M T R L. destruct (svc_inv_reach s0 s M T R) as [[K _ _ _ _ _ _ _ _ _] [TB _ _]].
    unfold lookup in L. rewrite K in L. apply (TB q n d w L).
  Qed.
End ServiceInv.

(* without the per-watcher mutex the service router, too, lets a removed target come back (the F11 schedule) *)
Definition f11s_threads : list thr :=
  [TUpd 1 [116;49]%N {| cd_id := 10; cd_svcs := [[115]%N] |} 0; TClose 1 [116;49]%N 0; TLook [115]%N None].
Theorem svc_removed_comes_back_without_mutex : exists s,
  crun [0; 1; 1; 0; 0; 2]%nat (cinit KService false [1%nat] [[116;49]%N] f11s_threads) = Some s /\
  mem_nat 1 (removed s) = true /\
  nth_error (threads s) 2 = Some (TLook [115]%N (Some (Some ([116;49]%N, 10, 1%nat)))).
Proof. eexists. split; [vm_compute; reflexivity|]. split; reflexivity. Qed.
Example svc_mutex_blocks_the_witness :
  crun [0; 1; 1]%nat (cinit KService true [1%nat] [[116;49]%N] f11s_threads) = None.
Proof. vm_compute. reflexivity. Qed.
