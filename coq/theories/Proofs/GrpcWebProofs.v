From GB Require Import Model.GrpcWeb Proofs.ListFacts.
From Coq Require Import Lia ZifyN ZifyBool.
Open Scope Z_scope.

Lemma max_len_val : max_len = 4194304. Proof. reflexivity. Qed.

Lemma be32_enc n : 0 <= n < 4294967296 -> be32 (enc_be32 n) = n.
Proof.
  intros H. unfold be32, enc_be32. cbn [map fold_left].
  rewrite !Z2N.id by (apply Z.mod_pos_bound; reflexivity). lia.
Qed.

Lemma enc_be32_length n : length (enc_be32 n) = 4%nat. Proof. reflexivity. Qed.

Definition frame_ok (p : bytes) : Prop := zlen p <= max_len.

(* what both readers see of a header in front of anything: enough bytes, the declared length, and the rest *)
Lemma header_read flag n rest : 0 <= n < 4294967296 ->
  let s := flag :: enc_be32 n ++ rest in
  (length s <? 5)%nat = false /\ be32 (firstn 4 (skipn 1 s)) = n /\ skipn 5 s = rest.
Proof. intros H. split; [reflexivity|]. split; [exact (be32_enc n H)|reflexivity]. Qed.

Lemma recv1_header flag n rest : 0 <= n < 4294967296 ->
  recv1 (flag :: enc_be32 n ++ rest) =
  if n =? 0 then (RMsg [], rest) else if max_len <? n then (RErr 8, rest)
  else if zlen rest <? n then (RErr 14, []) else (RMsg (firstn (Z.to_nat n) rest), skipn (Z.to_nat n) rest).
Proof. intros H. destruct (header_read flag n rest H) as (L & B & R). unfold recv1. rewrite L, B, R. reflexivity. Qed.

Lemma payload_split p rest : zlen (p ++ rest) <? zlen p = false /\
  firstn (Z.to_nat (zlen p)) (p ++ rest) = p /\ skipn (Z.to_nat (zlen p)) (p ++ rest) = rest.
Proof.
  unfold zlen. rewrite Nat2Z.id, app_length. split; [lia|]. split; [apply firstn_exact | apply skipn_exact].
Qed.

Lemma recv1_frame flag p rest : frame_ok p -> recv1 (enc_frame flag p ++ rest) = (RMsg p, rest).
Proof.
  intros Hok. unfold frame_ok in Hok. rewrite max_len_val in Hok. unfold enc_frame. cbn [app]. rewrite <- app_assoc.
  rewrite recv1_header by (unfold zlen in *; lia). destruct (payload_split p rest) as (L & F & S). rewrite L, F, S.
  destruct (Z.eqb_spec (zlen p) 0) as [Z0|_]; [destruct p; [reflexivity|discriminate Z0]|].
  rewrite max_len_val. destruct (Z.ltb_spec 4194304 (zlen p)); [lia|reflexivity].
Qed.

Lemma recv_all_frames : forall ps fuel, (length ps < fuel)%nat -> Forall frame_ok ps ->
  recv_all_with recv1 fuel (concat (map (enc_frame 0) ps)) = (ps, 0).
Proof.
  induction ps as [|p ps IH]; intros fuel Hf Hok.
  - destruct fuel; [inversion Hf|]. reflexivity.
  - destruct fuel; [inversion Hf|]. inversion Hok; subst.
    cbn [map concat recv_all_with]. rewrite recv1_frame by assumption.
    rewrite IH; [reflexivity | simpl in Hf; lia | assumption].
Qed.

Lemma concat_frames_length ps : (length ps <= length (concat (map (enc_frame 0) ps)))%nat.
Proof. induction ps as [|p ps IH]; simpl; [lia|]. rewrite app_length. simpl. lia. Qed.

(* C08: frames round trip, for every chunking *)
Theorem frames_roundtrip ps chunks : Forall frame_ok ps ->
  concat chunks = concat (map (enc_frame 0) ps) -> recv_chunks chunks = (ps, 0).
Proof.
  intros Hok E. unfold recv_chunks, recv_all. rewrite E.
  apply recv_all_frames; [|assumption]. pose proof (concat_frames_length ps). lia.
Qed.

Theorem chunking_irrelevant c1 c2 : concat c1 = concat c2 -> recv_chunks c1 = recv_chunks c2.
Proof. intros E. unfold recv_chunks. rewrite E. reflexivity. Qed.

Theorem oversize_rejected flag n rest : max_len < n < 4294967296 ->
  recv1 (flag :: enc_be32 n ++ rest) = (RErr 8, rest).
Proof.
  intros H. rewrite max_len_val in H. rewrite recv1_header, max_len_val by lia.
  destruct (Z.eqb_spec n 0); [lia|]. destruct (Z.ltb_spec 4194304 n); [reflexivity|lia].
Qed.

Lemma be32_nonneg b : 0 <= be32 b.
Proof. apply (fold_left_inv_In _ (fun acc => 0 <= acc)); [intros acc c Ha _; lia | reflexivity]. Qed.

(* whatever is delivered is a whole declared frame: header, then exactly the declared number of bytes; never a prefix *)
Theorem delivered_is_whole_frame s p rest : recv1 s = (RMsg p, rest) ->
  s = firstn 5 s ++ p ++ rest /\ be32 (firstn 4 (skipn 1 s)) = zlen p /\ zlen p <= max_len.
Proof.
  unfold recv1. destruct s as [|c s']; [discriminate|]. set (s := c :: s').
  destruct (Nat.ltb_spec (length s) 5); [discriminate|].
  pose proof (be32_nonneg (firstn 4 (skipn 1 s))) as NN. set (len := be32 _) in *.
  destruct (Z.eqb_spec len 0) as [Z0|NZ].
  - intros [= <- <-]. repeat split; [symmetry; apply (firstn_skipn 5 s) | exact Z0 | discriminate].
  - destruct (Z.ltb_spec max_len len) as [|Hmax]; [discriminate|]. destruct (Z.ltb_spec (zlen (skipn 5 s)) len); [discriminate|].
    intros [= <- <-]. assert (Lf : zlen (firstn (Z.to_nat len) (skipn 5 s)) = len) by (unfold zlen in *; rewrite firstn_length; lia).
    repeat split; [rewrite firstn_skipn; symmetry; apply firstn_skipn | symmetry; exact Lf | exact (Z.le_trans _ _ _ (Z.eq_le_incl _ _ Lf) Hmax)].
Qed.

(* the pre-repair reader truncates: shown on the algorithm with a small limit (the real one needs a 4 MiB witness) *)
Theorem recv_old_truncates : exists s p rest,
  recv1_old_with 2 s = (RMsg p, rest) /\ zlen p < be32 (firstn 4 (skipn 1 s)).
Proof.
  exists [0;0;0;0;4;7;7;7;7]%N, [7;7]%N, [7;7]%N. split; vm_compute; reflexivity.
Qed.

Lemma ws_data_message fc p : ws_on_message false (fc :: enc_frame 0 p) = (Some (WData p), (fc =? 1)%N).
Proof. reflexivity. Qed.

(* data messages in front are delivered; how the stream ends is decided by what follows them *)
Lemma ws_data_prefix ps tail : ws_recv_all false (map (fun p => 0%N :: enc_frame 0 p) ps ++ tail) =
  let '(qs, e) := ws_recv_all false tail in (ps ++ qs, e).
Proof.
  induction ps as [|p ps IH]; [cbn [map app]; destruct (ws_recv_all false tail); reflexivity|].
  cbn [map app ws_recv_all]. rewrite ws_data_message.
  change ((0 =? 1)%N) with false. rewrite IH. destruct (ws_recv_all false tail). reflexivity.
Qed.

Theorem ws_delivery ps : ws_recv_all false (map (fun p => 0%N :: enc_frame 0 p) ps ++ [[1%N]]) = (ps, 0).
Proof. rewrite ws_data_prefix. cbn. rewrite app_nil_r. reflexivity. Qed.

Theorem ws_malformed_is_error ps m : (m = [] \/ (2 <= length m <= 5)%nat) ->
  snd (ws_recv_all false (map (fun p => 0%N :: enc_frame 0 p) ps ++ [m])) = 3.
Proof.
  intros Hm. rewrite ws_data_prefix. cbn [ws_recv_all]. destruct Hm as [->|Hm]; [reflexivity|].
  destruct m as [|a m]; [simpl in Hm; lia|]. unfold ws_on_message.
  destruct (Nat.leb_spec 6 (length (a :: m))); [lia|]. destruct (Nat.eqb_spec (length (a :: m)) 1); [lia | reflexivity].
Qed.

Definition enc_f (f : N * bytes) : bytes := enc_frame (fst f) (snd f).

Lemma parse_one flag p rest fuel :
  zlen p < 4294967296 ->
  parse_frames (S fuel) (enc_frame flag p ++ rest) =
  let '(fs, l) := parse_frames fuel rest in ((flag, p) :: fs, l).
Proof.
  intros Hl. unfold enc_frame. cbn [app]. rewrite <- app_assoc.
  assert (R0 : 0 <= zlen p < 4294967296) by (unfold zlen in *; lia).
  destruct (header_read flag (zlen p) (p ++ rest) R0) as (L & B & R).
  cbn [parse_frames]. cbv zeta in L, B, R. rewrite L, B, R. destruct (payload_split p rest) as (L' & F & S). rewrite L', F, S. reflexivity.
Qed.

Theorem parse_frames_enc : forall fs fuel, (length fs < fuel)%nat ->
  Forall (fun f => zlen (snd f) < 4294967296) fs ->
  parse_frames fuel (concat (map enc_f fs)) = (fs, []).
Proof.
  induction fs as [|[flag p] fs IH]; intros fuel Hf Hok.
  - destruct fuel; [inversion Hf|]. reflexivity.
  - destruct fuel; [inversion Hf|]. inversion Hok; subst. cbn [map concat].
    unfold enc_f at 1. cbn [fst snd]. rewrite parse_one by assumption.
    rewrite IH; [reflexivity | simpl in Hf; lia | assumption].
Qed.

(* the modelled response: data frames then exactly one trailer frame, in final position *)
Definition resp_body (msgs : list bytes) (trailer_block : bytes) : bytes :=
  concat (map enc_f (map (fun m => (0%N, m)) msgs ++ [(128%N, trailer_block)])).

Theorem response_shape msgs tb fuel :
  Forall (fun m => zlen m < 4294967296) msgs -> zlen tb < 4294967296 -> (S (length msgs) < fuel)%nat ->
  parse_frames fuel (resp_body msgs tb) = (map (fun m => (0%N, m)) msgs ++ [(128%N, tb)], []).
Proof.
  intros Hm Ht Hf. unfold resp_body. apply parse_frames_enc.
  - rewrite app_length, map_length. simpl. lia.
  - apply Forall_app. split; [apply Forall_map; exact Hm | repeat constructor; exact Ht].
Qed.

Lemma unhex_hex n : (n < 16)%N -> unhex (hex_digit n) = Some n.
Proof.
  (* below ten a digit, from ten on an upper-case letter: unhex takes off the offset of whichever it is *)
  intros H. unfold hex_digit, unhex. destruct (N.ltb_spec n 10).
  - replace (is_digit (48 + n)) with true by (unfold is_digit; lia). f_equal. lia.
  - replace (is_digit (55 + n)) with false by (unfold is_digit; lia). replace ((65 <=? 55 + n) && (55 + n <=? 70))%N with true by lia. f_equal. lia.
Qed.

Lemma keep_not_pct c : path_keep c = true -> (c =? 37)%N = false.
Proof.
  intros H. destruct (N.eqb_spec c 37) as [->|_]; [discriminate H|reflexivity].
Qed.

Lemma nibbles c : (c < 256 -> c / 16 < 16 /\ c mod 16 < 16)%N.
Proof. intros H. split; [apply N.div_lt_upper_bound; [discriminate | exact H] | apply N.mod_lt; discriminate]. Qed.

Lemma pct_roundtrip_gen : forall m fuel, Forall (fun c => (c < 256)%N) m -> (length (path_escape m) <= fuel)%nat ->
  pct_decode fuel (path_escape m) = m.
Proof.
  induction m as [|c m IH]; intros fuel Hb Hf; [destruct fuel; reflexivity|].
  inversion Hb as [|? ? Hc Hm]; subst. unfold path_escape in *. cbn [flat_map] in *.
  destruct (path_keep c) eqn:K; cbn [app length] in Hf; (destruct fuel; [inversion Hf|]); cbn [app pct_decode].
  - rewrite (keep_not_pct c K), IH by (auto; lia). reflexivity.
  - rewrite N.eqb_refl, IH by (auto; lia). destruct (nibbles c Hc) as [N1 N2]. rewrite (unhex_hex _ N1), (unhex_hex _ N2).
    f_equal. rewrite N.mul_comm. symmetry. apply N.div_mod'.
Qed.

Theorem pct_roundtrip m : Forall (fun c => (c < 256)%N) m -> pct_dec (path_escape m) = m.
Proof. intros H. unfold pct_dec. apply pct_roundtrip_gen; [exact H | lia]. Qed.

Lemma hex_digit_printable n : (n < 16)%N -> (33 <= hex_digit n <= 126)%N.
Proof. intros H. unfold hex_digit. destruct (N.ltb_spec n 10); lia. Qed.

Theorem escaped_is_printable_ascii m : Forall (fun c => (c < 256)%N) m ->
  Forall (fun c => (33 <= c <= 126)%N) (path_escape m).
Proof.
  induction m as [|c m IH]; intros Hb; [constructor|]. inversion Hb as [|? ? Hc Hm]; subst.
  unfold path_escape. cbn [flat_map]. apply Forall_app. split; [|apply IH; assumption].
  destruct (path_keep c) eqn:K.
  - constructor; [|constructor]. unfold path_keep, is_alnum, is_lower, is_upper, is_digit in K. cbn [existsb] in K. lia.
  - destruct (nibbles c Hc) as [N1 N2]. repeat constructor; try discriminate; apply hex_digit_printable; assumption.
Qed.

Example frames_ex : recv_chunks [[0;0;0]; [0;2;8]; [1;0;0;0;0;0]]%N = ([[8;1]; []]%N, 0).
Proof. reflexivity. Qed.
