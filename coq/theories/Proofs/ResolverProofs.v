From GB Require Import Model.Resolver.
Open Scope Z_scope.

Lemma last_delivered_app a b :
  last_delivered (a ++ b) = match last_delivered b with Some x => Some x | None => last_delivered a end.
Proof.
  induction a as [|c a IH]; simpl; [destruct (last_delivered b); reflexivity|].
  destruct c as [x|]; rewrite IH; destruct (last_delivered b); try reflexivity.
Qed.

(* the resolver's outcome of one poll does not depend on the remembered method priority *)
Lemma resolve_result s p : fst (resolve s p) = reachable_result p.
Proof.
  unfold resolve, reachable_result. destruct (prio_alpha s), (p_v1 p), (p_alpha p); reflexivity.
Qed.

(* the remembered fingerprint is exactly the last delivered contract *)
Lemma run_polls_spec : forall ps s sofar, last s = last_delivered sofar ->
  run_polls s ps = spec_cbs sofar ps.
Proof.
  induction ps as [|p ps IH]; intros s sofar L; [reflexivity|].
  cbn [run_polls spec_cbs]. unfold poll.
  pose proof (resolve_result s p) as R. destruct (resolve s p) as [r pa]. simpl in R. rewrite <- R.
  (* in each of the four outcomes the callbacks agree, and [last] is again what was delivered last *)
  destruct r as [c|]; [rewrite <- L; destruct (last s) as [l|]; [destruct (Z.eqb_spec l c)|]|];
    (f_equal; apply IH; cbn [last]; rewrite last_delivered_app; cbn; congruence).
Qed.

(* C15: over ANY history of poll outcomes the callbacks are exactly what the contract requires *)
Theorem updates_exact ps : run_polls r_init ps = spec_cbs [] ps.
Proof. apply run_polls_spec. reflexivity. Qed.

(* the hash is saved late: [last] changes only together with an update being delivered *)
Theorem hash_saved_late s p : last (fst (poll s p)) <> last s -> exists c, snd (poll s p) = [CUpdate c] /\ last (fst (poll s p)) = Some c.
Proof.
  unfold poll. destruct (resolve s p) as [[c|] pa]; simpl.
  - destruct (last s) as [l|].
    + destruct (Z.eqb_spec l c); simpl; [congruence | eauto].
    + simpl; eauto.
  - congruence.
Qed.

(* a failed poll only reports an error and leaves what was delivered in place *)
Theorem failure_keeps_state s p : fst (resolve s p) = PFail -> last (fst (poll s p)) = last s /\ snd (poll s p) = [CError].
Proof. unfold poll. destruct (resolve s p) as [[c|] pa]; simpl; [discriminate | auto]. Qed.

(* version fallback: whichever protocol version is remembered first, the callbacks are the same *)
Theorem version_priority_irrelevant l b1 b2 ps :
  run_polls {| last := l; prio_alpha := b1 |} ps = run_polls {| last := l; prio_alpha := b2 |} ps.
Proof.
  rewrite !(run_polls_spec ps _ (match l with Some c => [CUpdate c] | None => [] end)); [reflexivity | |]; destruct l; reflexivity.
Qed.

Example history_ex :
  run_polls r_init [ {| p_v1 := true; p_alpha := true; p_res := PSuccess 1 |}; {| p_v1 := true; p_alpha := true; p_res := PFail |};
                     {| p_v1 := false; p_alpha := true; p_res := PSuccess 1 |}; {| p_v1 := true; p_alpha := true; p_res := PSuccess 2 |} ]
  = [CUpdate 1; CError; CUpdate 2].
Proof. reflexivity. Qed.
