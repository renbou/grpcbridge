(* C18: in the LTS of Model/RouteConc.v the table mutex is held by at most one thread, exactly while that thread is between
   the two phases of an update - for every kind of router, every set of threads and every interleaving.  (The per-watcher
   mutexes are RouteConcProofs.Mx, clause x_lock, which both C11 invariants contain.) *)
From Coq Require Import Lia.
From GB Require Import Model.RouteConc Proofs.RouteConcProofs.

Definition in_cs (t : thr) : bool := match t with TUpd _ _ _ 2 => true | _ => false end.
Definition cs_count (ts : list thr) : nat := length (filter in_cs ts).

Definition mutex_inv (s : cstate) : Prop := cs_count (threads s) = if tmu s then 1%nat else 0%nat.

Lemma in_cs_false t : (forall w n d, t <> TUpd w n d 2) -> in_cs t = false.
Proof. destruct t as [w n d [|[|[|pc]]]| | |]; try reflexivity. intros H. destruct (H w n d eq_refl). Qed.

(* one step preserves the invariant: the mutex is taken by the step into phase two and released by the step out of it *)
Lemma mutex_step s i s' : mutex_inv s -> In (i, s') (cnext s) -> mutex_inv s'.
Proof.
  unfold mutex_inv. intros I H. apply cnext_sstep in H as (t & t' & s1 & N & It & -> & _ & _ & _ & S).
  pose proof (lock_held in_cs _ t (tmu s) I It) as IN.
  apply (lock_step in_cs _ i t t' (tmu s) _ N I). cbn [set_threads tmu].
  destruct S; try destruct Hp as [(-> & -> & _)|(-> & -> & _)]; rewrite ?Em, ?Tm; try reflexivity.
  - rewrite (IN eq_refl). reflexivity.
  - rewrite (in_cs_false t P2), (in_cs_false t'); [reflexivity|]. intros w n d X. discriminate (P9 _ _ _ _ X).
Qed.

(* every reachable state: at most one thread is between the phases of an update, and exactly then the mutex is held *)
Theorem table_mutex_exclusive s0 s : mutex_inv s0 -> CReach s0 s -> mutex_inv s.
Proof. intros I R. induction R as [|s i s' R IH H]; [exact I|exact (mutex_step _ _ _ IH H)]. Qed.

Corollary at_most_one_in_critical_section s0 s : mutex_inv s0 -> CReach s0 s -> (cs_count (threads s) <= 1)%nat.
Proof. intros I R. pose proof (table_mutex_exclusive _ _ I R) as M. unfold mutex_inv in M. destruct (tmu s); lia. Qed.

(* no thread enters a table mutation while another is inside: the step that mutates is disabled *)
Corollary mutation_excluded s0 s w n d : mutex_inv s0 -> CReach s0 s -> (1 <= cs_count (threads s))%nat -> thr_step (TUpd w n d 1) s = None.
Proof.
  intros I R C. pose proof (table_mutex_exclusive _ _ I R) as M. unfold mutex_inv in M. cbn [thr_step].
  destruct (tmu s); [reflexivity|lia].
Qed.
Corollary removal_excluded s0 s w n : mutex_inv s0 -> CReach s0 s -> (1 <= cs_count (threads s))%nat -> thr_step (TClose w n 1) s = None.
Proof.
  intros I R C. pose proof (table_mutex_exclusive _ _ I R) as M. unfold mutex_inv in M. cbn [thr_step].
  destruct (tmu s); [rewrite andb_false_r; reflexivity|lia].
Qed.

Lemma init_mutex_inv k mx live0 watched0 ts : cs_count ts = 0%nat -> mutex_inv (cinit k mx live0 watched0 ts).
Proof. intros H. unfold mutex_inv, cinit. cbn [threads tmu]. exact H. Qed.

Example init_ok : mutex_inv (cinit KService true [0%nat] [[116%N]] [TUpd 0 [116%N] {| cd_id := 1; cd_svcs := [[115%N]] |} 0; TClose 0 [116%N] 0; TLook [115%N] None]).
Proof. reflexivity. Qed.
