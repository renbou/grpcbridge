(* C17 proofs: what the decoding models of C03 and C04 say about arbitrary client input: every outcome is a value of a
   small error alphabet (the models are total functions; a Go panic has no counterpart in them, which is why the fuzz
   stream of harness/c17 is the tie for "no panic"), and client mistakes map to 4xx.  What C08 and C09 contribute to C17
   stands in GrpcWebProofs.v and JsonProofs.v. *)
From GB Require Import Model.Transcode Model.HttpErr Model.TemplateRun Proofs.TranscodeProofs Proofs.TemplateProofs.
Open Scope Z_scope.

(* a request whose body, path variables or query parameters do not parse is answered 400 when the binding itself is valid *)
Theorem bad_request_is_400 sc bp params q body c :
  transcode sc bp params q body = Fail c ->
  (bp = [] \/ bp = s_star \/ traverse (length (split_dot bp)) sc O (split_dot bp) <> None) ->
  http_of_code c = 400.
Proof.
  intros T V. destruct (transcode_codes _ _ _ _ _ _ T) as [->|(-> & N1 & N2 & N3)]; [reflexivity|].
  destruct V as [V|[V|V]]; contradiction.
Qed.

(* routing: whatever the path, the outcome is a route, NotFound (404) or InvalidArgument for a malformed escape (400) *)
Theorem routing_errors_are_4xx abort routes comps c :
  first_route abort routes comps = VL [VN c] -> http_of_code c = 404 \/ http_of_code c = 400.
Proof. intros H. destruct (first_route_codes _ _ _ _ H) as [->| ->]; [left|right]; reflexivity. Qed.
