From GB Require Import Model.ReflProto Proofs.Common Proofs.ListFacts.
Open Scope Z_scope.

Lemma mem_b_spec x l : reflect (In x l) (mem_b x l).
Proof. apply iff_reflect. symmetry. apply mem_In. Qed.
Lemma mem_b_false x l : mem_b x l = false <-> ~ In x l.
Proof. destruct (mem_b_spec x l); split; congruence. Qed.

Lemma fnames_app a b : fnames (a ++ b) = fnames a ++ fnames b.
Proof. apply map_app. Qed.
Lemma in_fnames_iff x l : In x (fnames l) <-> exists f, rf_name f = x /\ In f l.
Proof. apply in_map_iff. Qed.

(* first occurrences of the names not in [seen]: what [dedupe] does to file names and [filter_names] to service names *)
Fixpoint uniq (seen l : list bytes) : list bytes :=
  match l with [] => [] | x :: r => if mem_b x seen then uniq seen r else x :: uniq (x :: seen) r end.

Lemma uniq_In x : forall l seen, In x (uniq seen l) <-> In x l /\ ~ In x seen.
Proof.
  induction l as [|y l IH]; intros seen; cbn [uniq In]; [tauto|].
  destruct (mem_b_spec y seen) as [M|M]; cbn [In]; rewrite IH; cbn [In].
  - split; [intros [I N]; auto|]. intros [[<-|I] N]; [contradiction | auto].
  - split; [intros [<-|[I N]]; auto|]. intros [[E|I] N]; [auto|].
    destruct (bytes_eqb_spec y x) as [|NE]; [auto|]. right. split; [exact I|]. intros [|]; auto.
Qed.

Lemma uniq_nodup : forall l seen, NoDup (uniq seen l).
Proof.
  induction l as [|y l IH]; intros seen; cbn [uniq]; [constructor|].
  destruct (mem_b y seen); [apply IH|]. constructor; [|apply IH].
  intros I. apply uniq_In in I as [_ N]. apply N. left. reflexivity.
Qed.

Lemma dedupe_uniq : forall l seen, fnames (dedupe seen l) = uniq seen (fnames l).
Proof.
  induction l as [|f l IH]; intros seen; cbn [dedupe fnames map uniq]; [reflexivity|].
  destruct (mem_b (rf_name f) seen); [apply IH | cbn [map]; f_equal; apply IH].
Qed.

Lemma dedupe_fnames l x : In x (fnames (dedupe [] l)) <-> In x (fnames l).
Proof. rewrite dedupe_uniq, uniq_In. tauto. Qed.

Theorem dedupe_keeps_names l f : In f l -> In (rf_name f) (fnames (dedupe [] l)).
Proof. intros I. apply dedupe_fnames, in_map, I. Qed.

Theorem dedupe_sub : forall l seen f, In f (dedupe seen l) -> In f l.
Proof.
  induction l as [|g l IH]; intros seen f; cbn [dedupe]; [auto|].
  destruct (mem_b (rf_name g) seen); [|intros [<-|I]; [left; reflexivity|]]; right; eauto.
Qed.

Theorem dedupe_nodup l seen : NoDup (fnames (dedupe seen l)).
Proof. rewrite dedupe_uniq. apply uniq_nodup. Qed.

(* F5: the code before the repair kept duplicates, which protodesc.NewFiles rejects *)
Theorem dedupe_old_refuted : exists l, ~ NoDup (fnames (dedupe_old l)).
Proof.
  exists [{| rf_name := [97%N]; rf_deps := []; rf_svcs := [] |}; {| rf_name := [97%N]; rf_deps := []; rf_svcs := [] |}].
  intros H. inversion H as [|? ? N _]; subst. apply N. left; reflexivity.
Qed.

Definition closed_except (set : list rfile) (missing : list bytes) : Prop :=
  forall f d, In f set -> In d (rf_deps f) -> In d (fnames set) \/ In d missing.

Lemma dedup_names_In x l : In x (dedup_names l) <-> In x l.
Proof.
  induction l as [|y l IH]; cbn [dedup_names In]; [tauto|].
  destruct (mem_b_spec y l) as [M|M]; cbn [In]; rewrite IH; [|tauto]. split; [auto|]. intros [<-|I]; assumption.
Qed.

Lemma deps_missing_In fs present d : In d (deps_missing fs present) <-> (exists f, In f fs /\ In d (rf_deps f)) /\ ~ In d present.
Proof.
  unfold deps_missing. rewrite dedup_names_In, filter_In, in_flat_map, negb_true_iff, mem_b_false. tauto.
Qed.

(* what one round adds to [set] from the de-duplicated response *)
Definition fresh (set resp : list rfile) : list rfile := filter (fun x => negb (mem_b (rf_name x) (fnames set))) resp.

Lemma fresh_In set resp f : In f (fresh set resp) <-> In f resp /\ ~ In (rf_name f) (fnames set).
Proof. unfold fresh. rewrite filter_In, negb_true_iff, mem_b_false. reflexivity. Qed.

Lemma fresh_names set resp x : In x (fnames (set ++ fresh set resp)) <-> In x (fnames set) \/ In x (fnames resp).
Proof.
  rewrite fnames_app, in_app_iff. split.
  - intros [I|I]; [auto|]. right. apply in_fnames_iff in I as (g & E & I). apply in_fnames_iff. exists g. apply fresh_In in I. tauto.
  - intros [I|I]; [auto|]. destruct (mem_b_spec x (fnames set)) as [M|M]; [auto|].
    right. apply in_fnames_iff in I as (g & <- & I). apply (in_map rf_name), fresh_In. auto.
Qed.

Lemma fresh_nodup set resp : NoDup (fnames set) -> NoDup (fnames resp) -> NoDup (fnames (set ++ fresh set resp)).
Proof.
  intros Ns Nr. rewrite fnames_app. apply NoDup_app; [exact Ns | |].
  - apply NoDup_map_filter, Nr.
  - intros x I1 I2. apply in_fnames_iff in I2 as (g & <- & I2). apply fresh_In in I2. tauto.
Qed.

Lemma next_missing set resp d :
  In d (deps_missing resp (fnames set ++ fnames resp)) <->
  (exists f, In f resp /\ In d (rf_deps f)) /\ ~ In d (fnames (set ++ fresh set resp)).
Proof. rewrite deps_missing_In, in_app_iff, fresh_names. reflexivity. Qed.

Lemma all_got resp missing :
  filter (fun m => negb (mem_b m (fnames resp))) missing = [] <-> forall m, In m missing -> In m (fnames resp).
Proof.
  rewrite filter_nil. split; intros H m I; specialize (H m I); destruct (mem_b_spec m (fnames resp)); easy.
Qed.

Section Srv.
  Variable ans_file : list bytes -> bytes -> option (list rfile).

  Lemma bfs_nil fuel sent set : bfs ans_file fuel sent set [] = Some set.
  Proof. destruct fuel; reflexivity. Qed.

  Lemma bfs_S fuel sent set missing : missing <> [] ->
    bfs ans_file (S fuel) sent set missing =
    match batch ans_file sent missing with
    | None => None
    | Some (raw, sent') =>
        match filter (fun m => negb (mem_b m (fnames (dedupe [] raw)))) missing with
        | _ :: _ => None
        | [] => bfs ans_file fuel sent' (set ++ fresh set (dedupe [] raw))
                    (deps_missing (dedupe [] raw) (fnames set ++ fnames (dedupe [] raw)))
        end
    end.
  Proof. destruct missing; [congruence | reflexivity]. Qed.

  Lemma bfs_sound : forall fuel sent set missing res,
    NoDup (fnames set) -> closed_except set missing ->
    bfs ans_file fuel sent set missing = Some res ->
    NoDup (fnames res) /\ closed_except res [].
  Proof.
    induction fuel as [|fuel IH]; intros sent set missing res ND CE H;
      (destruct missing as [|m0 ms]; [rewrite bfs_nil in H; injection H as <-; auto|]); [discriminate|].
    rewrite bfs_S in H by discriminate. destruct (batch _ _ _) as [[raw sent']|]; [|discriminate].
    destruct (filter _ (m0 :: ms)) eqn:F; [|discriminate]. pose proof (proj1 (all_got _ _) F) as Got.
    apply IH in H; [exact H | apply fresh_nodup, dedupe_nodup; exact ND |].
    intros f d I Id. destruct (mem_b_spec d (fnames (set ++ fresh set (dedupe [] raw)))) as [J|J]; [auto|].
    right. apply next_missing. split; [|exact J]. apply in_app_or in I as [I|I]; [|apply fresh_In in I; exists f; tauto].
    exfalso. apply J, fresh_names. destruct (CE f d I Id); auto.
  Qed.
End Srv.

(* the whole collection phase, for every server: what comes back has every file name once and is closed under dependencies -
   the two conditions of protodesc.NewFiles that [registry_ok] tests (stated here as propositions, not through that test) *)
Theorem collect_sound ans_sym ans_file limit names res :
  collect ans_sym ans_file limit names = Some res ->
  NoDup (fnames res) /\ (forall f d, In f res -> In d (rf_deps f) -> In d (fnames res)).
Proof.
  unfold collect. destruct (batch ans_sym [] names) as [[raw sent]|]; [|discriminate].
  intros H. apply bfs_sound in H.
  - destruct H as (A & B). split; [exact A|]. intros f d I Id. destruct (B f d I Id) as [X|[]]. exact X.
  - apply dedupe_nodup.
  - intros f d I Id. destruct (mem_b_spec d (fnames (dedupe [] raw))) as [M|M]; [auto|].
    right. apply deps_missing_In. eauto.
Qed.

Lemma filter_names_uniq ignore : forall l seen,
  filter_names ignore seen l = filter (fun n => negb (existsb (fun p => prefix_b p n) ignore)) (uniq seen (filter valid_name l)).
Proof.
  induction l as [|x l IH]; intros seen; cbn [filter_names filter]; [reflexivity|].
  destruct (valid_name x); cbn [negb uniq]; [|apply IH]. destruct (mem_b x seen); [apply IH|].
  cbn [filter]. destruct (existsb _ ignore); cbn [negb]; rewrite IH; reflexivity.
Qed.

Theorem services_exact ignore listed n :
  In n (filter_names ignore [] listed) <->
  In n listed /\ valid_name n = true /\ existsb (fun p => prefix_b p n) ignore = false.
Proof. rewrite filter_names_uniq, filter_In, uniq_In, filter_In, negb_true_iff. tauto. Qed.

Lemma filter_names_nodup ignore l seen : NoDup (filter_names ignore seen l).
Proof. rewrite filter_names_uniq. apply NoDup_filter, uniq_nodup. Qed.

Theorem http_methods_exact :
  map http_method_of std_kinds = [[71;69;84]; [80;85;84]; [80;79;83;84]; [68;69;76;69;84;69]; [80;65;84;67;72]]%N.
Proof. reflexivity. Qed.
