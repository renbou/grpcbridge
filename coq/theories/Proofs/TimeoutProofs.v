From GB Require Import Model.Timeout.
From Coq Require Import Lia ZifyBool.
Open Scope Z_scope.

Lemma unit_table_canonical : Extracted.timeout_units = spec_units.
Proof. reflexivity. Qed.

Lemma guard_canonical : Extracted.timeout_min_size = 2%nat /\ Extracted.timeout_max_size = 9%nat.
Proof. split; reflexivity. Qed.

Lemma digits_val_bounds : forall ds acc,
  all_digits ds = true -> 0 <= acc ->
  acc * 10 ^ Z.of_nat (length ds) <= digits_val acc ds < (acc + 1) * 10 ^ Z.of_nat (length ds).
Proof.
  induction ds as [|c r IH]; intros acc Hd Hacc.
  - simpl. lia.
  - simpl in Hd. apply andb_prop in Hd as [Hc Hr].
    unfold is_digit in Hc. apply andb_prop in Hc as [H1 H2].
    apply N.leb_le in H1, H2.
    cbn [digits_val length].
    specialize (IH (acc * 10 + (Z.of_N c - 48)) Hr ltac:(lia)).
    rewrite Nat2Z.inj_succ, Z.pow_succ_r by lia.
    assert (0 < 10 ^ Z.of_nat (length r)) by (apply Z.pow_pos_nonneg; lia).
    nia.
Qed.

Lemma digits_val_range ds :
  all_digits ds = true -> (length ds <= 8)%nat -> 0 <= digits_val 0 ds < 100000000.
Proof.
  intros Hd Hl.
  pose proof (digits_val_bounds ds 0 Hd ltac:(lia)) as B.
  assert (10 ^ Z.of_nat (length ds) <= 10 ^ 8) by (apply Z.pow_le_mono_r; lia).
  change (10 ^ 8) with 100000000 in *. lia.
Qed.

Lemma assoc_N_In {A} u (l : list (N * A)) k : assoc_N u l = Some k -> In k (map snd l).
Proof.
  induction l as [|[u' k'] l IH]; [discriminate|]. cbn [assoc_N map snd In].
  destruct (N.eqb u u'); [intros [= <-]; left; reflexivity|right; auto].
Qed.

(* every unit is positive; eight digits of any unit but the hour stay below 2^63 *)
Lemma spec_unit_bounds u k : assoc_N u spec_units = Some k -> 0 < k /\ (k = hour_ns \/ k <= 60000000000).
Proof.
  intros H%assoc_N_In.
  pose proof (proj1 (forallb_forall (fun k => (0 <? k) && ((k =? hour_ns) || (k <=? 60000000000))) (map snd spec_units)) eq_refl k H) as T.
  cbv beta in T. lia.
Qed.

Lemma spec_value_bounds ds u k : all_digits ds = true -> (length ds <= 8)%nat -> assoc_N u spec_units = Some k ->
  0 <= digits_val 0 ds * k /\ (k = hour_ns \/ digits_val 0 ds * k <= max_int64).
Proof.
  intros Hd Hl Hk. pose proof (digits_val_range ds Hd Hl) as R. apply spec_unit_bounds in Hk as [K [->|S]].
  - split; [apply Z.mul_nonneg_nonneg; lia | left; reflexivity].
  - split; [apply Z.mul_nonneg_nonneg; lia | right]. apply Z.le_trans with (100000000 * 60000000000); [apply Z.mul_le_mono_nonneg; lia | discriminate].
Qed.

(* the code's decoder (after the F12 repair) is the grammar *)
Lemma decode_is_spec s : decode_timeout s = spec_decode s.
Proof.
  unfold decode_timeout, decode_timeout_with, spec_decode, unit_of.
  rewrite unit_table_canonical. destruct guard_canonical as [-> ->].
  induction s as [|u ds _] using rev_ind; [reflexivity|].
  rewrite rev_unit, rev_involutive, last_last, removelast_last, app_length. cbn [length].
  replace ((length ds + 1 <? 2)%nat || (9 <? length ds + 1)%nat) with (negb ((1 <=? length ds)%nat && (length ds <=? 8)%nat)) by lia.
  destruct (assoc_N u spec_units) as [k|] eqn:Ek; [|destruct (negb _); reflexivity].
  destruct ((1 <=? length ds)%nat && (length ds <=? 8)%nat) eqn:G; cbn [negb andb]; [|reflexivity].
  unfold parse_uint. destruct ds as [|d0 dr]; [discriminate G|]. cbv iota. set (ds := d0 :: dr) in *.
  destruct (all_digits ds) eqn:Hd; [|reflexivity].
  assert (Hl : (length ds <= 8)%nat) by lia.
  destruct (spec_value_bounds ds u k Hd Hl Ek) as [_ B]. pose proof (digits_val_range ds Hd Hl) as R.
  destruct (Z.eqb_spec k hour_ns) as [->|N]; cbn [andb].
  - rewrite Z.gtb_ltb. change max_hours with 2562047. unfold hour_ns, max_int64.
    destruct (Z.ltb_spec 2562047 (digits_val 0 ds)); f_equal; lia.
  - destruct B as [->|B]; [destruct (N eq_refl)|]. f_equal. lia.
Qed.

(* the grammar, relationally: this is the statement of the property *)
Definition grammar (s : bytes) (d : Z) : Prop :=
  exists ds u k, s = ds ++ [u] /\ (1 <= length ds <= 8)%nat /\ all_digits ds = true /\
                 assoc_N u spec_units = Some k /\ d = Z.min (digits_val 0 ds * k) max_int64.

Lemma spec_decode_grammar s d : spec_decode s = Some d <-> grammar s d.
Proof.
  unfold spec_decode, grammar. split.
  - induction s as [|u ds _] using rev_ind; [discriminate|]. rewrite rev_unit, rev_involutive.
    destruct (assoc_N u spec_units) as [k|] eqn:Ek; [|discriminate]. destruct (_ && _) eqn:G; [|discriminate].
    intros [= <-]. exists ds, u, k. repeat split; auto; lia.
  - intros (ds & u & k & -> & L & Hd & Hk & ->). rewrite rev_unit, rev_involutive, Hk, Hd.
    replace ((1 <=? length ds) && (length ds <=? 8))%nat with true by lia. reflexivity.
Qed.

Theorem decode_spec s d : decode_timeout s = Some d <-> grammar s d.
Proof. rewrite decode_is_spec. apply spec_decode_grammar. Qed.

(* accepted values are representable, non-negative durations *)
Lemma grammar_range s d : grammar s d -> 0 <= d <= max_int64.
Proof.
  intros (ds & u & k & _ & [_ Hl] & Hd & Hk & ->).
  destruct (spec_value_bounds ds u k Hd Hl Hk) as [P _]. unfold max_int64. lia.
Qed.
Theorem decode_range s d : decode_timeout s = Some d -> 0 <= d <= max_int64.
Proof. rewrite decode_spec. apply grammar_range. Qed.

(* exactness below saturation: every unit but H, and H up to 2562047 hours *)
Theorem decode_exact s ds u k :
  s = ds ++ [u] -> (1 <= length ds <= 8)%nat -> all_digits ds = true -> assoc_N u spec_units = Some k ->
  digits_val 0 ds * k <= max_int64 -> decode_timeout s = Some (digits_val 0 ds * k).
Proof.
  intros -> Hl Hd Hk Hle. apply decode_spec. exists ds, u, k. repeat split; auto; try lia.
Qed.

(* F12: with ParseInt (the code before the repair) a signed value is mis-read as a negative duration *)
Theorem decode_old_refuted : exists s d, decode_timeout_old s = Some d /\ ~ grammar s d.
Proof.
  exists [45; 53; 83]%N, (-5000000000). split; [vm_compute; reflexivity|]. intros [P _]%grammar_range. lia.
Qed.

(* non-vacuity *)
Example decode_ex1 : decode_timeout [49; 48; 83]%N = Some 10000000000. Proof. reflexivity. Qed.
Example decode_ex2 : decode_timeout [53; 49; 50; 52; 48; 57; 52; 72]%N = Some max_int64. Proof. reflexivity. Qed.
Example decode_ex3 : decode_timeout [45; 53; 83]%N = None. Proof. reflexivity. Qed.

Lemma halved_never_later now d : now <= d -> now <= halved_deadline now d <= d.
Proof. intros H. unfold halved_deadline. assert (0 <= (d - now) / 2 <= d - now) by (split; [apply Z.div_pos; lia | apply Z.div_le_upper_bound; lia]). lia. Qed.
