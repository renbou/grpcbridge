From GB Require Import Model.MDFilter Proofs.Common Proofs.ListFacts.
Open Scope N_scope.

Lemma lookup_del k k' m : md_lookup k' (md_del_raw k m) = if bytes_eqb k' k then [] else md_lookup k' m.
Proof. exact (agetd_adel [] k' k m). Qed.

Lemma lookup_del_same k m : md_lookup k (md_del_raw k m) = [].
Proof. rewrite lookup_del, bytes_eqb_refl. reflexivity. Qed.

Lemma keys_del k k' m : In k' (map fst (md_del_raw k m)) <-> In k' (map fst m) /\ k' <> k.
Proof.
  rewrite !in_map_iff. split.
  - intros ([a vs] & <- & I). apply In_adel in I as [I N]. eauto.
  - intros [([a vs] & <- & I) N]. exists (a, vs). split; [reflexivity | apply In_adel; auto].
Qed.

Lemma lookup_set k vs m k' : vs <> [] ->
  md_lookup k' (md_set k vs m) = if bytes_eqb k' (lower k) then vs else md_lookup k' m.
Proof. intros NE. destruct vs as [|v vs]; [congruence|]. exact (agetd_aset [] k' (lower k) (v :: vs) m). Qed.

Lemma lookup_append k v m k' :
  md_lookup k' (md_append k v m) = if bytes_eqb k' (lower k) then md_lookup (lower k) m ++ [v] else md_lookup k' m.
Proof. exact (agetd_aset [] k' (lower k) _ m). Qed.

Definition nonempty_vals (m : md) : Prop := forall k vs, In (k, vs) m -> vs <> [].

Lemma nonempty_del k m : nonempty_vals m -> nonempty_vals (md_del_raw k m).
Proof. intros H k' vs I. apply In_adel in I as [I _]. eauto. Qed.

Lemma nonempty_set k vs m : nonempty_vals m -> nonempty_vals (md_set k vs m).
Proof.
  intros H. unfold md_set. destruct vs as [|v vs]; [exact H|].
  intros k' vs' [I|I]; [injection I as <- <-; discriminate|]. eapply nonempty_del; eauto.
Qed.

Lemma lookup_nonempty_key k m : nonempty_vals m -> In k (map fst m) -> md_lookup k m <> [].
Proof.
  induction m as [|[k' vs] m IH]; cbn [map fst In md_lookup]; [tauto|]. intros H I.
  destruct (bytes_eqb_spec k k') as [|N]; [apply (H k' vs); left; reflexivity|].
  apply IH; [intros a b J; apply (H a b); right; exact J | destruct I as [I|I]; [congruence | exact I]].
Qed.

Lemma lookup_key k m : md_lookup k m <> [] -> In k (map fst m).
Proof.
  induction m as [|[k' vs] m IH]; cbn [map fst In md_lookup]; [tauto|].
  destruct (bytes_eqb_spec k k') as [->|]; auto.
Qed.

(* both directions run one loop: every allow-list key that [m] carries is Set in the output, under the key renamed by [ren]
   and with its values transformed by [xf] - request: rename_req and xform_req; response and trailers: the prefix put in
   front, the values as they are *)
Section Filter.
  Variables (ren : bytes -> bytes) (xf : bytes -> list bytes -> list bytes) (m : md).

  Definition filter_step (out : md) (k : bytes) : md :=
    match md_get k m with [] => out | vs => md_set (ren k) (xf (ren k) vs) out end.

  Definition filter_inv (allow : list bytes) (out : md) : Prop :=
    nonempty_vals out /\
    forall k', md_lookup k' out <> [] ->
      exists k, In k allow /\ md_get k m <> [] /\ k' = lower (ren k) /\ md_lookup k' out = xf (ren k) (md_get k m).

  (* [filter_inv allow] speaks about the whole allow-list, so it is kept by every step taken with one of its keys *)
  Lemma filter_step_inv allow out k : In k allow -> filter_inv allow out -> filter_inv allow (filter_step out k).
  Proof.
    intros Ik [H1 H2]. unfold filter_step. destruct (md_get k m) as [|v vs] eqn:G; [split; assumption|].
    split; [apply nonempty_set; exact H1|]. intros k' L.
    (* when every value is dropped, Set is a no-op *)
    destruct (xf (ren k) (v :: vs)) as [|x xs] eqn:X; [apply H2, L|].
    rewrite lookup_set in * by discriminate. destruct (bytes_eqb_spec k' (lower (ren k))) as [E|]; [|apply H2, L].
    exists k. rewrite G, X. repeat split; [exact Ik | discriminate | exact E].
  Qed.

  Lemma filter_fold_inv allow : filter_inv allow (fold_left filter_step allow []).
  Proof.
    apply fold_left_inv_In; [intros; apply filter_step_inv; assumption|].
    split; [intros k vs []|]. intros k' L. destruct (L eq_refl).
  Qed.
End Filter.

Theorem filter_request_allowlisted prefix m allow :
  nonempty_vals (filter_request allow prefix m) /\
  forall k', md_lookup k' (filter_request allow prefix m) <> [] ->
    exists k, In k allow /\ md_get k m <> [] /\ k' = lower (rename_req prefix k) /\
              md_lookup k' (filter_request allow prefix m) = xform_req (rename_req prefix k) (md_get k m).
Proof. exact (filter_fold_inv _ _ m allow). Qed.

Theorem filter_response_allowlisted prefix m allow :
  nonempty_vals (filter_response allow prefix m) /\
  forall k', md_lookup k' (filter_response allow prefix m) <> [] ->
    exists k, In k allow /\ k' = lower (prefix ++ k) /\ md_lookup k' (filter_response allow prefix m) = md_get k m.
Proof.
  destruct (filter_fold_inv (app prefix) (fun _ vs => vs) m allow) as [N H]. split; [exact N|].
  intros k' L. destruct (H k' L) as (k & A & _ & B & C). eauto.
Qed.

Theorem default_deny_response prefix m : filter_response [] prefix m = [].
Proof. reflexivity. Qed.

Lemma filter_request_md_nonempty allow prefix m : nonempty_vals (filter_request_md allow prefix m).
Proof.
  unfold filter_request_md. pose proof (filter_request_allowlisted prefix m allow) as [H _].
  destruct (md_get timeout_key m); [exact H | apply nonempty_set; exact H].
Qed.

Lemma base_context_keys f k : nonempty_vals f ->
  In k (map fst (fst (base_context f))) <-> In k (map fst f) /\ k <> lower timeout_key.
Proof.
  intros NE. unfold base_context. destruct (md_get timeout_key f) eqn:G; [|apply keys_del].
  split; [|tauto]. intros I. split; [exact I|]. intros ->. exact (lookup_nonempty_key _ _ NE I G).
Qed.

Theorem timeout_never_forwarded allow prefix m :
  ~ In (lower timeout_key) (map fst (outgoing_md allow prefix m)).
Proof. intros I. apply base_context_keys in I; [tauto | apply filter_request_md_nonempty]. Qed.

Theorem outgoing_allowlisted allow prefix m k' :
  In k' (map fst (outgoing_md allow prefix m)) ->
  exists k, In k allow /\ md_get k m <> [] /\ k' = lower (rename_req prefix k).
Proof.
  intros I. apply base_context_keys in I as [K NT]; [|apply filter_request_md_nonempty].
  apply (lookup_nonempty_key _ _ (filter_request_md_nonempty allow prefix m)) in K.
  unfold filter_request_md in K. destruct (filter_request_allowlisted prefix m allow) as [_ H].
  destruct (md_get timeout_key m) as [|v vs]; [|rewrite lookup_set, (proj2 (bytes_eqb_neq _ _) NT) in K by discriminate];
    destruct (H k' K) as (k & I1 & I2 & I3 & _); eauto.
Qed.

(* default deny is the allow-list theorem at the empty list *)
Theorem default_deny_request prefix m : outgoing_md [] prefix m = [].
Proof.
  destruct (outgoing_md [] prefix m) as [|[k vs] r] eqn:E; [reflexivity|].
  destruct (outgoing_allowlisted [] prefix m k) as (k0 & [] & _). rewrite E. left. reflexivity.
Qed.

(* provenance: whatever an entry point puts in the incoming MD was supplied by the client *)
Definition supplied_key (ps : pairs) (k : bytes) : Prop := exists k0 v, In (k0, v) ps /\ lower k0 = k.

(* the three folds put a key in front of a deletion *)
Lemma keys_cons_del k vs (m : md) k' : In k' (map fst ((k, vs) :: md_del_raw k m)) -> k' = k \/ In k' (map fst m).
Proof. intros [<-|I]; [left; reflexivity | right; apply keys_del in I; tauto]. Qed.

Lemma headers_keys hs k : In k (map fst (headers_to_md hs)) -> supplied_key hs k.
Proof.
  revert k. apply (fold_left_inv_In _ (fun m => forall k, In k (map fst m) -> supplied_key hs k)); [|intros k []].
  intros m [k0 v] H I k Ik. apply keys_cons_del in Ik as [->|Ik]; [exists k0, v; auto | auto].
Qed.

Lemma query_keys qs k : In k (map fst (query_to_md qs)) -> supplied_key qs k.
Proof.
  revert k. apply (fold_left_inv_In _ (fun m => forall k, In k (map fst m) -> supplied_key qs k)); [|intros k []].
  intros m [k0 v] H I k Ik. cbn [fst snd] in Ik. destruct (_ && _); [|auto].
  apply keys_cons_del in Ik as [->|Ik]; [exists k0, v; auto | auto].
Qed.

Lemma join_keys a b k : In k (map fst (md_join a b)) -> In k (map fst (a ++ b)).
Proof.
  revert k. apply (fold_left_inv_In _ (fun m => forall k, In k (map fst m) -> In k (map fst (a ++ b)))); [|intros k []].
  intros m kv H I k Ik. apply keys_cons_del in Ik as [->|Ik]; [apply in_map, I | auto].
Qed.

Theorem entry_md_provenance e hs qs k :
  In k (map fst (entry_md e hs qs)) ->
  supplied_key hs k \/ (e = EWS /\ supplied_key qs k).
Proof.
  destruct e; cbn [entry_md]; intros I; try (left; apply headers_keys, I).
  apply join_keys in I. rewrite map_app in I.
  apply in_app_or in I as [I|I]; [right; split; [reflexivity | apply query_keys, I] | left; apply headers_keys, I].
Qed.

(* non-vacuity: a configuration where something is forwarded, renamed and decoded *)
Example forwards_something :
  outgoing_md [[88;45;65]; [120;45;99;45;98;105;110]] [112;45]
              [([120;45;97], [[118]]); ([120;45;99;45;98;105;110], [[81;85;73;61]]); ([103;114;112;99;45;116;105;109;101;111;117;116], [[53;83]])]
  = [([112;45;120;45;99;45;98;105;110], [[65;66]]); ([112;45;120;45;97], [[118]])].
Proof. vm_compute. reflexivity. Qed.
